(* C17  Block parts and Merkle proofs: only genuine parts accepted, exact reassembly.
   This file contains only the property theorems (closed by [exact]; the refutation in (5) by
   evaluating its two witnesses), their assumption reports and the non-vacuity example.
   Models: Model/Merkle.v, Model/PartSet.v (gemmill/modules/go-merkle/simple_tree.go,
   gemmill/types/part_set.go). *)
From Coq Require Import List NArith ZArith Bool.
From AnnVerif Require Import Base.Res Base.Bytes Model.Merkle Model.PartSet
 Proofs.MerkleProofs Proofs.PartSetProofs.
Import ListNotations.

(* (1) Reassembly: for every data, every part size > 0 and every arrival sequence that contains
   each genuine part at least once - in any order, with any duplicates and with any other parts
   (mutated, foreign, out of range) interleaved - a receiver that knows only the header ends up
   complete, reads back exactly the original bytes and still has the original root. *)
Theorem c17_reassembly :
  forall (hash : bytes -> bytes), (forall x y, hash x = hash y -> x = y) ->
  forall (data : bytes) (psize : nat), (0 < psize)%nat ->
  let cs := chunks psize data in
  let root := simple_root hash (map hash cs) in
  (Z.of_nat (length cs) < 4611686018427387904)%Z ->
  forall (arrivals : list part) (s0 : partset),
  data <> [] ->
  from_header (Z.of_nat (length cs)) root = Ok s0 ->
  (forall i, (i < length cs)%nat -> In (genuine hash data psize i) arrivals) ->
  let s := add_parts hash s0 arrivals in
  is_complete s = true /\ read_all s = Ok data /\ ps_hash s = root.
Proof. exact reassembly_any_order. Qed.
Print Assumptions c17_reassembly.

(* (2) A receiver that knows only the header accepts a part, in any state reachable by any
   arrival sequence, if and only if it is the genuine part at that index and not yet present. *)
Theorem c17_accept_iff_genuine :
  forall (hash : bytes -> bytes), (forall x y, hash x = hash y -> x = y) ->
  forall (data : bytes) (psize : nat), (0 < psize)%nat ->
  let cs := chunks psize data in
  let root := simple_root hash (map hash cs) in
  (Z.of_nat (length cs) < 4611686018427387904)%Z ->
  forall (arrivals : list part) (s0 : partset) (p : part),
  from_header (Z.of_nat (length cs)) root = Ok s0 ->
  let s := add_parts hash s0 arrivals in
  (snd (add_part hash s p true) = Added <->
   exists i, (i < length cs)%nat /\ p = genuine hash data psize i /\ nth i (ps_parts s) None = None).
Proof. exact accept_iff_genuine. Qed.
Print Assumptions c17_accept_iff_genuine.

(* (3) A part that is not accepted leaves the set exactly as it was (no hypotheses at all). *)
Theorem c17_rejected_unchanged :
  forall hash s p v, snd (add_part hash s p v) <> Added -> fst (add_part hash s p v) = s.
Proof. exact add_part_rejected_unchanged. Qed.
Print Assumptions c17_rejected_unchanged.

(* (4) Every generated inclusion proof verifies. *)
Theorem c17_proof_complete :
  forall (hash : bytes -> bytes) (hs : list bytes) (i : nat),
  (i < length hs)%nat -> (Z.of_nat (length hs) < 4611686018427387904)%Z ->
  verify hash (Z.of_nat i) (Z.of_nat (length hs)) (nth i hs []) (simple_root hash hs) (aunts_of hash hs i) = true.
Proof. exact verify_complete. Qed.
Print Assumptions c17_proof_complete.

(* (5) Soundness.  Full statement of the property ("no proof verifies for a different leaf,
   index or total"):
     forall hs i total leaf aunts, verify hash i total leaf (simple_root hash hs) aunts = true ->
       total = length hs /\ 0 <= i < total /\ leaf = nth i hs /\ aunts = aunts_of hs i.
   It is FALSE of the faithful model (and of the code): the root commits neither to the number of
   items nor to leaf-versus-inner position; see c17_proof_sound_cross_total_refuted below
   (DESIGN F-17d, a known finding).  What holds, and is proved for every index (negative and
   >= total included), every leaf and every aunt list, is soundness for the total the verifier
   supplies itself - which is how PartSet.AddPart uses it (total comes from the header): *)
Theorem c17_proof_sound_partial :
  forall (hash : bytes -> bytes), (forall x y, hash x = hash y -> x = y) ->
  forall (hs : list bytes) (i : Z) (leaf : bytes) (aunts : list bytes),
  (Z.of_nat (length hs) < 4611686018427387904)%Z ->
  verify hash i (Z.of_nat (length hs)) leaf (simple_root hash hs) aunts = true ->
  (0 <= i < Z.of_nat (length hs))%Z /\ leaf = nth (Z.to_nat i) hs [] /\ aunts = aunts_of hash hs (Z.to_nat i).
Proof. exact verify_sound. Qed.
Print Assumptions c17_proof_sound_partial.

(* the witness: with an injective hash (the identity), the proof of leaf 0 among 5 leaves also
   verifies for total 6, and an inner node of a 4-leaf tree verifies as "leaf 0 of 2". *)
Definition idh (x : bytes) : bytes := x.
Theorem c17_proof_sound_cross_total_refuted :
  (forall x y, idh x = idh y -> x = y) /\
  (exists hs i total' leaf aunts,
      total' <> Z.of_nat (length hs) /\
      verify idh i total' leaf (simple_root idh hs) aunts = true) /\
  (exists hs leaf aunts,
      ~ In leaf hs /\ verify idh 0 2 leaf (simple_root idh hs) aunts = true).
Proof.
  split; [intros x y H; exact H|]. split.
  - exists [[1]; [2]; [3]; [4]; [5]]%N, 0%Z, 6%Z, [1]%N, (aunts_of idh [[1]; [2]; [3]; [4]; [5]]%N 0).
    split; [discriminate|]. vm_compute. reflexivity.
  - exists [[1]; [2]; [3]; [4]]%N, (hash2 idh [1]%N [2]%N), [hash2 idh [3]%N [4]%N].
    split; [|vm_compute; reflexivity].
    vm_compute. intros [H|[H|[H|[H|[]]]]]; discriminate.
Qed.
Print Assumptions c17_proof_sound_cross_total_refuted.

(* non-vacuity: five bytes in parts of two; the three genuine parts arrive in reverse order and
   then once more in order *)
Example c17_nonvacuous :
  let data := [10; 20; 30; 40; 50]%N in
  let psize := 2%nat in
  let snd_ps := from_data idh data psize in
  let parts := map (genuine idh data psize) (seq 0 3) in
  (forall x y, idh x = idh y -> x = y) /\ (0 < psize)%nat /\
  ps_total snd_ps = 3%Z /\
  match from_header (ps_total snd_ps) (ps_hash snd_ps) with
  | Ok s0 =>
    let s := add_parts idh s0 (rev parts ++ parts) in
    is_complete s = true /\ read_all s = Ok data
  | _ => False
  end.
Proof. split; [intros x y H; exact H|]. vm_compute. repeat split; auto. Qed.
