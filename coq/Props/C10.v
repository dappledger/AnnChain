(* C10  EVM semantics conform to reference go-ethereum (Constantinople rules).
   Only property theorems (closed by [exact]), assumption reports and examples.
   Three ties to /repo.  (a) Model/EvmArith.v defines every pure instruction on 256-bit words; the
   theorems below show that these definitions are the mathematical operations of the
   specification; the "evmarith" engine compares the in-tree interpreter (and the reference
   interpreter) with the definitions on boundary and random operands.  (b) Model/EvmCore.v is an
   executable model of the interpreter loop for one contract frame: stack and its limit, memory in
   words, storage, logs, jump-destination analysis, PUSH/DUP/SWAP, call data and code copies,
   environment and block instructions, RETURN/REVERT/STOP/INVALID and undefined opcodes, on top of
   (a); the theorems below are its structural invariants for every program, environment and run
   length; the "evmcore" engine compares the in-tree interpreter with it on generated programs
   (outcome class, return data, storage, logs) and runs the reference interpreter on the same
   requests; Model/EvmWorld.v puts that machine into a world of accounts with message-call frames
   (CALL, CALLCODE, DELEGATECALL, STATICCALL with value transfer, revert of failed callees, static
   mode, return data; CREATE, CREATE2, SELFDESTRUCT; BALANCE, EXTCODESIZE, EXTCODECOPY,
   EXTCODEHASH), compared by the "evmworld" engine.
   (c) What (b) does not model - the precompiled contracts and gas - is compared with the reference
   only: the "evmdiff" engine runs generated programs on the in-tree and the reference go-ethereum
   v1.8.27 interpreters and compares outcome class, return data, post-state root and logs (partial,
   DESIGN.md C10). *)
From Coq Require Import ZArith Bool List.
From AnnVerif Require Import Model.EvmArith Proofs.EvmProofs Model.EvmCore Proofs.EvmCoreProofs Proofs.EvmTyping Model.EvmWorld Proofs.EvmWorldProofs.
Import ListNotations.
Open Scope Z_scope.

Theorem c10_add : forall a b, op_add a b = (a + b) mod 2 ^ 256.
Proof. exact add_spec. Qed.
Theorem c10_sub : forall a b, op_sub a b = (a - b) mod 2 ^ 256.
Proof. exact sub_spec. Qed.
Theorem c10_mul : forall a b, op_mul a b = (a * b) mod 2 ^ 256.
Proof. exact mul_spec. Qed.
Theorem c10_addmod : forall a b n, n <> 0 -> op_addmod a b n = (a + b) mod n.
Proof. exact addmod_spec. Qed.
Theorem c10_mulmod : forall a b n, n <> 0 -> op_mulmod a b n = (a * b) mod n.
Proof. exact mulmod_spec. Qed.
Print Assumptions c10_mulmod.

(* EXP: square-and-multiply over the exponent's bits is exponentiation modulo 2^256 *)
Theorem c10_exp : forall base e, 0 <= e -> op_exp base e = (base ^ e) mod 2 ^ 256.
Proof. exact exp_spec. Qed.
Print Assumptions c10_exp.

(* SDIV / SMOD: truncated quotient and remainder of the two's-complement readings; the one
   overflowing quotient -2^255 / -1 is excepted (it wraps to -2^255: c10_corner_cases) *)
Theorem c10_sdiv : forall a b, word a -> word b -> b <> 0 -> ~ (sgn a = - 2 ^ 255 /\ sgn b = -1) ->
  sgn (op_sdiv a b) = Z.quot (sgn a) (sgn b).
Proof. exact sdiv_signed. Qed.
Print Assumptions c10_sdiv.
Theorem c10_smod : forall a b, word a -> word b -> b <> 0 -> sgn (op_smod a b) = Z.rem (sgn a) (sgn b).
Proof. exact smod_signed. Qed.
Print Assumptions c10_smod.

Theorem c10_shl : forall s v, 0 <= s < 256 -> op_shl s v = (v * 2 ^ s) mod 2 ^ 256.
Proof. exact shl_spec. Qed.
Theorem c10_shr : forall s v, 0 <= s < 256 -> op_shr s v = v / 2 ^ s.
Proof. exact shr_spec. Qed.
Theorem c10_sar : forall s v, word v -> 0 <= s < 256 -> sgn (op_sar s v) = sgn v / 2 ^ s.
Proof. exact sar_signed. Qed.
Print Assumptions c10_sar.
Theorem c10_sar_saturates : forall s v, word v -> 256 <= s -> op_sar s v = if sgn v <? 0 then 2 ^ 256 - 1 else 0.
Proof. intros s v _. exact (sar_saturates s v). Qed.

Theorem c10_byte : forall th v, 0 <= th < 32 -> op_byte th v = (v / 256 ^ (31 - th)) mod 256.
Proof. exact byte_spec. Qed.
Theorem c10_div_word : forall a b, word a -> word b -> word (op_div a b).
Proof. exact div_word. Qed.
Theorem c10_mod_word : forall a b, word a -> word b -> word (op_mod a b).
Proof. intros a b _. exact (mod_word a b). Qed.
Print Assumptions c10_mod_word.

(* non-vacuity: the corner cases *)
Example c10_corner_cases :
  op_sdiv (2 ^ 255) (2 ^ 256 - 1) = 2 ^ 255 /\ op_smod (2 ^ 256 - 7) 3 = 2 ^ 256 - 1 /\
  op_sar 255 (2 ^ 255) = 2 ^ 256 - 1 /\ op_signextend 0 255 = 2 ^ 256 - 1 /\ op_signextend 0 127 = 127 /\
  op_exp 2 256 = 0 /\ op_exp 3 (2 ^ 256 - 1) mod 2 = 1 /\ op_byte 31 258 = 2 /\ op_div 5 0 = 0 /\ op_addmod (2 ^ 256 - 1) 2 7 = (2 ^ 256 + 1) mod 7.
Proof.
  do 6 (split; [vm_compute; reflexivity|]).
  (* by parity: a power of 3 is odd, and reduction modulo 2^256 keeps the parity *)
  split; [rewrite Zmod_odd, exp_odd; reflexivity|].
  do 2 (split; [vm_compute; reflexivity|]). vm_compute; reflexivity.
Qed.

(* the stack never exceeds its limit, whatever the program does *)
Theorem c10_stack_limit :
  forall e code m m', step e code m = inl m' -> (length (m_stack m') <= 1024)%nat.
Proof. exact step_stack_bound. Qed.
Print Assumptions c10_stack_limit.

(* the program counter stays on instruction boundaries: operands of PUSH are never executed *)
Theorem c10_pc_on_instruction_boundaries :
  forall e code m m', step e code m = inl m' -> at_start code (m_pc m) -> at_start code (m_pc m').
Proof. exact step_at_start. Qed.
Print Assumptions c10_pc_on_instruction_boundaries.

(* a jump is taken only to a JUMPDEST byte that is an instruction of the code *)
Theorem c10_jump_lands_on_jumpdest :
  forall code d, valid_dest code d = true -> 0 <= d -> nth (Z.to_nat d) code 0 = 91 /\ at_start code (Z.to_nat d).
Proof. intros code d H _. exact (jump_lands_on_jumpdest code d H). Qed.
Print Assumptions c10_jump_lands_on_jumpdest.

(* both hold in every state of every run from the start of a call *)
Theorem c10_run_invariant :
  forall fuel e code m, inv code m -> Forall (inv code) (states fuel e code m).
Proof. exact run_invariant. Qed.
Print Assumptions c10_run_invariant.
Theorem c10_initial_state : forall code store, inv code (init_state store).
Proof. exact init_inv. Qed.

(* non-vacuity: a counted loop that stores, a jump to a byte that is no JUMPDEST, and the stack limit
   PUSH1 3; JUMPDEST; DUP1; PUSH1 0; SSTORE; PUSH1 1; SWAP1; SUB; DUP1; PUSH1 2; JUMPI; STOP *)
Definition cx_env : env := mkEnv 193 170 170 0 0 12648430 1000 300 7 10000000 [1; 2; 3] (fun _ => 0).
Definition cx_loop : list Z := [96; 3; 91; 128; 96; 0; 85; 96; 1; 144; 3; 128; 96; 2; 87; 0].
Definition cx_badjump : list Z := [96; 3; 86; 97; 91; 91; 0].   (* jumps to offset 3: the PUSH2 itself; its operand, two bytes 91, is at 4 and 5 *)
Definition cx_overflow : list Z := [91; 88; 96; 0; 86].         (* JUMPDEST; PC; PUSH1 0; JUMP: one more word per turn *)
Example c10_core_nonvacuous :
  call 1000 cx_env cx_loop [] = OStop [] [(0, 1); (0, 2); (0, 3)] [] /\
  call 1000 cx_env cx_badjump [] = OFail /\
  call 4500 cx_env cx_overflow [] = OFail.
Proof.
  split; [vm_compute; reflexivity|]. split; [vm_compute; reflexivity|].
  (* not by running it: 4500 = 1023 * 4 + 3 + 405, 1023 turns of the loop and the three instructions
     up to the PUSH1 that finds the stack full *)
  exact (pc_loop_fails cx_env [] 405).
Qed.

(* type safety: in an environment of words and bytes, every value the machine holds stays of its
   kind - stack entries, storage keys and values are 256-bit words, memory cells are bytes, memory
   stays within what the model sizes, the program counter within the code (plus a PUSH operand) -
   through every instruction (every pure instruction, SHA3 via Model/Keccak.v included) and so in
   every state of every run *)
Theorem c10_type_safety :
  forall e code m m', wf_env e code -> typed code m -> step e code m = inl m' -> typed code m'.
Proof. exact step_typed. Qed.
Print Assumptions c10_type_safety.
Theorem c10_type_safety_of_runs :
  forall fuel e code, wf_env e code -> forall m, typed code m -> Forall (typed code) (states fuel e code m).
Proof. exact run_typed. Qed.
Print Assumptions c10_type_safety_of_runs.
Theorem c10_every_result_is_a_word :
  forall op a b c r, eval op a b c = Some r -> word a -> word b -> word c -> word r.
Proof. exact eval_word. Qed.
Theorem c10_hash_is_a_word : forall msg, word (Keccak.keccak_word msg).
Proof. exact keccak_word_word. Qed.

(* a frame in static mode - the callee of a STATICCALL and everything it calls in turn - leaves
   every account and the logs as they were, whatever its code does *)
Theorem c10_static_frames_change_nothing :
  forall b fuel ws fr l ws' o, f_static fr = true -> run_frame b fuel ws fr l = (ws', o) -> wsame ws' ws.
Proof. exact static_frame_changes_nothing. Qed.
Print Assumptions c10_static_frames_change_nothing.

(* non-vacuity: contract c1 calls contract c2 with value 5 and stores the flag; contract 2 stores its
   call value; then contract 1 STATICCALLs contract 2, whose SSTORE now fails (flag 0)
   c1: PUSH1 0 x4; PUSH1 5; PUSH1 194; PUSH1 0; CALL; PUSH1 1; SSTORE;  PUSH1 0 x4; PUSH1 194; PUSH1 0; STATICCALL; PUSH1 2; SSTORE; STOP
   c2: CALLVALUE; PUSH1 7; SSTORE; STOP *)
Definition wx_c1 : list Z := [96;0;96;0;96;0;96;0;96;5;96;194;96;0;241;96;1;85; 96;0;96;0;96;0;96;0;96;194;96;0;250;96;2;85;0].
Definition wx_c2 : list Z := [52;96;7;85;0].
Definition wx_world : world := [(193, mkAcc 1 100 wx_c1 []); (194, mkAcc 1 0 wx_c2 []); (170, mkAcc 5 1000 [] [])].
Definition wx_benv : benv := mkBenv 170 0 12648430 1000 300 7 10000000 (fun _ => 0).
Example c10_world_nonvacuous :
  match call_world 1000 wx_benv wx_world 193 0 [] with
  | (ws, FStop []) =>
    (a_balance (get_acc (ws_world ws) 193), a_balance (get_acc (ws_world ws) 194),
     sload (a_store (get_acc (ws_world ws) 193)) 1, sload (a_store (get_acc (ws_world ws) 193)) 2,
     sload (a_store (get_acc (ws_world ws) 194)) 7) = (95, 5, 1, 0, 5)
  | _ => False
  end.
Proof. vm_compute. reflexivity. Qed.
