(* C06  Crash-atomic commit: restart after any crash converges to the uncrashed result.
   Only property theorems (closed by [exact]), assumption reports and examples.
   Model: Model/Commit.v - the durable writes of one commit in the order the code issues them
   (block meta, parts, previous commit, seen commit, store descriptor | intermediate state, state
   trie, application last-block record, receipts, final state), a crash as a surviving prefix,
   the start of a node on what survived (the blockchain reactor stepping the store back, the
   sanity checks of RecoverFromCrash, consensus re-committing the interrupted height from its
   log), and any number of further crashes inside the recovery.  The "crash" engine kills a real
   node at every such write and compares write order and the heights the restarted node sees
   with this model. *)
From Coq Require Import List NArith Bool.
From AnnVerif Require Import Model.Commit Proofs.CommitProofs.
Import ListNotations.
Open Scope N_scope.

(* (1) for every height, every disk complete below it, every crash point k0 of the commit and
   every sequence ks of crash points of the recoveries that follow: every start succeeds (no sanity
   panic) and the node ends with store, state and application at the new height, every record of
   every height on disk, and the application state = the blocks 1..h applied once each, in order *)
Theorem c06_crash_recovery_converges :
  forall d h k0 ks, 1 <= h -> Complete d (h - 1) ->
  exists d', crash_history true d h k0 ks = Some d' /\ Complete d' h.
Proof. exact crash_recovery. Qed.
Print Assumptions c06_crash_recovery_converges.

(* (2) the uncrashed commit reaches the same description: what (1) converges to is the uncrashed
   result *)
Theorem c06_uncrashed_commit :
  forall d h, 1 <= h -> Complete d (h - 1) -> Complete (apply_writes d (commit_writes h (approot d))) h.
Proof. exact commit_complete. Qed.
Print Assumptions c06_uncrashed_commit.

(* (3) at every crash point and after every partial recovery the disk satisfies the invariant the
   start-up logic relies on (what is announced is there: descriptor => block records, application
   record => descriptor and trie, state => application record and receipts) *)
Theorem c06_every_crash_state_is_recoverable :
  forall d h k, 1 <= h -> Mid d h ->
  Mid (lifetime d (commit_writes h (chain (h - 1))) k) h /\
  ((10 <= k)%nat -> state (lifetime d (commit_writes h (chain (h - 1))) k) = h).
Proof. exact mid_commit_prefix. Qed.
Print Assumptions c06_every_crash_state_is_recoverable.

Theorem c06_start_never_panics :
  forall d h, 1 <= h -> Mid d h ->
  start_node true d h = Ready (if state d =? h then [] else commit_writes h (chain (h - 1))).
Proof. exact start_on_mid. Qed.
Print Assumptions c06_start_never_panics.

(* (4) the code before repair 4b0525d did not have the property: a node that died after the
   application's last-block record and before its own state record could never start again *)
Theorem c06_refuted_before_repair :
  Complete disk2 2 /\ crash_history false disk2 3 8 [] = None /\ crash_history false disk2 3 9 [] = None /\
  exists d', crash_history true disk2 3 8 [] = Some d' /\ complete_upto d' 3 = true.
Proof. exact unrepaired_node_does_not_restart. Qed.
Print Assumptions c06_refuted_before_repair.

(* non-vacuity: a crash in every window, then a crash inside the recovery *)
Example c06_nonvacuous :
  forallb (fun k0 => forallb (fun k1 =>
     match crash_history true disk2 3 k0 [k1] with Some d => complete_upto d 3 | None => false end)
     (seq 0 12)) (seq 0 12) = true.
Proof. vm_compute. reflexivity. Qed.
