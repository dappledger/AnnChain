(* C19  Transaction pool: per-account nonce order, no duplicates, no loss, bounded.
   Only property theorems (closed by [exact]), assumption reports and examples.
   Model: Model/TxPool.v (chain/app/evm/tx_pool.go, tx_sort.go; gemmill/mempool/mempool.go).
   Reachable pools: any sequence of submissions, administrative requests, Update calls, commits
   (new account nonces followed by updateToState) and flushes, from an empty pool. *)
From Coq Require Import List NArith ZArith Bool.
From AnnVerif Require Import Model.TxPool Proofs.PoolProofs Proofs.MemRaceProofs.
Import ListNotations.
Open Scope N_scope.

(* (1) in every reachable pool, every account's pending queue is a non-empty run of strictly
   consecutive nonces starting at the account's current state nonce, and the pending queues stay
   within their limit *)
Theorem c19_reachable_pool :
  forall pl wl ns0 ops, let '(ns, p) := prun pl wl ns0 ops in pending_ok ns p /\ sized p.
Proof. exact reachable_pool. Qed.
Print Assumptions c19_reachable_pool.

(* (2) hence a reap offers each account's transactions in consecutive nonce order from the
   current nonce, with no two transactions for one (account, nonce) *)
Theorem c19_reap_order :
  forall ns p a m, pending_ok ns p -> In (a, m) (snd (reap_all p)) -> keys_sorted (p_pending p) ->
  m <> [] /\ is_run (nonce_of ns a) m /\ NoDup (map t_nonce m).
Proof. exact reap_order. Qed.
Print Assumptions c19_reap_order.

(* (3) exact duplicates are rejected and change nothing *)
Theorem c19_duplicate_rejected :
  forall ns p t, existsb (N.eqb (t_id t)) (p_all p) = true -> receive ns p t = (p, 1).
Proof. exact duplicate_rejected. Qed.
Print Assumptions c19_duplicate_rejected.

(* (4) gemmill/mempool: a reap never repeats a transaction; a committed one leaves the list *)
Theorem c19_mempool_reap_nodup : forall m n, mem_inv m -> NoDup (mem_reap m n).
Proof. exact mem_reap_nodup. Qed.
Print Assumptions c19_mempool_reap_nodup.
Theorem c19_mempool_inv_receive : forall m id, mem_inv m -> mem_inv (fst (mem_receive m id)).
Proof. exact mem_receive_inv. Qed.
Print Assumptions c19_mempool_inv_receive.
Theorem c19_mempool_inv_update : forall m ids, mem_inv m -> mem_inv (mem_update m ids).
Proof. exact mem_update_inv. Qed.
Print Assumptions c19_mempool_inv_update.

(* (5) full statements that are FALSE of the faithful model and of the code (known findings).
   F-19a: a transaction that a committed block contained but whose execution failed (its
   account nonce did not move) is still pending and is offered again.
   F-19c: the lookup map is not bounded: same-nonce submissions that lose the race for a pending
   slot stay in it for ever.
   F-19b: gemmill/mempool forgets committed transactions, so a re-submitted one is accepted and
   offered again. *)
Definition tx0 := mkTx 1 0 100.
Theorem c19_not_offered_after_commit_refuted :
  let '(ns1, p1) := prun 10 10 [] [PSubmit tx0] in
  (* the block contained tx0 (Update) but execution failed: nonces unchanged at the commit *)
  let '(ns2, p2) := fold_left pstep [PUpdate [100]; PCommit []] (ns1, p1) in
  snd (reap_all p2) = [(1, [tx0])].
Proof. vm_compute. reflexivity. Qed.
Print Assumptions c19_not_offered_after_commit_refuted.

Theorem c19_lookup_map_unbounded_refuted :
  let ops := map (fun k => PSubmit (mkTx 1 0 (100 + k))) [0; 1; 2; 3; 4; 5; 6; 7; 8; 9] in
  let '(_, p) := prun 2 2 [] ops in
  length (p_all p) = 10%nat /\ am_count (p_pending p) = 1%nat /\ am_count (p_waiting p) = 0%nat.
Proof. vm_compute. repeat split; reflexivity. Qed.
Print Assumptions c19_lookup_map_unbounded_refuted.

Theorem c19_mempool_reoffer_refuted :
  let m1 := fst (mem_receive (mkMem [] []) 7) in
  let m2 := mem_update m1 [7] in            (* a block containing 7 was committed *)
  let '(m3, accepted) := mem_receive m2 7 in (* the same transaction arrives again *)
  accepted = true /\ mem_reap m3 (-1) = [7].
Proof. vm_compute. split; reflexivity. Qed.
Print Assumptions c19_mempool_reoffer_refuted.

(* non-vacuity: gap then fill, commit of a prefix *)
Example c19_nonvacuous :
  let ops := [PSubmit (mkTx 1 1 11); PSubmit (mkTx 1 2 12); PSubmit (mkTx 1 0 10); PSubmit (mkTx 2 0 20);
              PCommit [(1, 2)]] in
  let '(ns, p) := prun 10 10 [] ops in
  snd (reap_all p) = [(1, [mkTx 1 2 12]); (2, [mkTx 2 0 20])] /\ nonce_of ns 1 = 2.
Proof. vm_compute. split; reflexivity. Qed.

(* (6) gemmill/mempool under concurrent submitters: ReceiveTx holds no lock between its first lookup
   in the cache and the test-and-set that records the transaction; for EVERY interleaving of the
   lookups and pushes of any number of goroutines with the updates of the consensus routine the
   pool invariant holds, and between two updates a transaction is accepted at most once however
   many goroutines hand it in at the same moment (the engine's "race" operations run exactly the
   schedule in which all of them pass the lookup before any of them pushes) *)
Theorem c19_mempool_any_schedule : forall evs m, mem_inv m -> mem_inv (mev_run evs m).
Proof. exact mem_inv_any_schedule. Qed.
Print Assumptions c19_mempool_any_schedule.
Theorem c19_mempool_accepted_at_most_once :
  forall x evs m, forallb (fun e => negb (is_update e)) evs = true -> (accepted x evs m <= 1)%nat.
Proof. exact accepted_at_most_once. Qed.
Print Assumptions c19_mempool_accepted_at_most_once.
Example c19_mempool_race_nonvacuous :
  let evs := [MLookup 7; MLookup 7; MLookup 7; MPush 7; MPush 7; MPush 9; MPush 7]%N in
  accepted 7%N evs (mkMem [] []) = 1%nat /\ m_txs (mev_run evs (mkMem [] [])) = [7; 9]%N.
Proof. vm_compute. split; reflexivity. Qed.
