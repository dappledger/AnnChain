(* C12  Liveness: with +2/3 honest and fair delivery every height terminates.
   Only property theorems (closed by [exact]), assumption reports and evaluated scenarios.
   Termination under fair delivery is a temporal property of the N-node system; what is proved
   here are the step-level facts it rests on, for every state and input of Model/Node.v: the node
   never blocks (its transition function is total: [handle] returns for every input, and returns
   Panic only where the code panics - the engine compares), every waiting step has its timeout
   scheduled when it is entered, heights and rounds never go back, and what was seen (majorities)
   is never lost, and a lock is released by a +2/3 prevote for something else in any later round up
   to the node's own - also one the node has left already (this version prevotes its locked block
   whatever is proposed, so this rule is what lets a height terminate once the others have moved
   on).  The temporal composition is not mechanised; the "consensus" engine checks it on
   the real code: after an arbitrary adversarial prefix, a fair suffix (everything delivered,
   reactor-style gossip, timeouts when idle) must bring every honest node past the next height
   (partial, DESIGN.md C12). *)
From Coq Require Import List NArith ZArith Bool.
From AnnVerif Require Import Base.Res Base.Bytes Model.VoteSet Model.ValSet Model.Node Proofs.NodeProofs Proofs.NodeSteps Proofs.PowerSum Proofs.Unlock Proofs.NoStaleLock Proofs.Decided.
Import ListNotations.
Open Scope Z_scope.

(* (1) entering a waiting step schedules its timeout *)
Theorem c12_propose_timeout_scheduled :
  forall h r n n' o, enter_propose h r n = Ok (n', o) ->
  negb (height n =? h) || (r <? round n) || ((round n =? r) && (3 <=? step n)) = false ->
  In (OTimeout h r 3) o /\ 3 <= step n' /\ round n' = r.
Proof. exact enter_propose_schedules. Qed.
Print Assumptions c12_propose_timeout_scheduled.
Theorem c12_prevote_wait_timeout_scheduled :
  forall h r n n' o, enter_prevote_wait h r n = Ok (n', o) ->
  negb (height n =? h) || (r <? round n) || ((round n =? r) && (5 <=? step n)) = false ->
  In (OTimeout h r 5) o /\ step n' = 5 /\ round n' = r.
Proof. exact enter_prevote_wait_schedules. Qed.
Print Assumptions c12_prevote_wait_timeout_scheduled.
Theorem c12_precommit_wait_timeout_scheduled :
  forall h r n n' o, enter_precommit_wait h r n = Ok (n', o) ->
  negb (height n =? h) || (r <? round n) || ((round n =? r) && (7 <=? step n)) = false ->
  In (OTimeout h r 7) o /\ step n' = 7 /\ round n' = r.
Proof. exact enter_precommit_wait_schedules. Qed.
Print Assumptions c12_precommit_wait_timeout_scheduled.
Theorem c12_commit_schedules_next_height :
  forall c h n n' o, finalize_commit c h n = Ok (n', o) -> height n' <> height n ->
  In (OTimeout (height n') 0 1) o /\ step n' = 1 /\ round n' = 0.
Proof. exact commit_schedules_next_height. Qed.
Print Assumptions c12_commit_schedules_next_height.

(* (2) progress is never undone: heights and rounds never go back and +2/3 majorities stay *)
Theorem c12_monotone :
  forall c ins n n', inv n -> run c ins n = Ok n' ->
  height n <= height n' /\ (height n' = height n -> round n <= round n' /\ hv_le (votes n) (votes n')).
Proof. intros c ins n n' _. apply run_onward. Qed.
Print Assumptions c12_monotone.

(* (3) the lock-release rule: a prevote that completes +2/3 prevotes for something else than the
   locked block, in a round after the lock round and not after the node's round (a round the node
   has left included), leaves the node unlocked, or locked from that round on *)
Theorem c12_late_polka_releases_lock :
  forall c v peer n n' o hv code lb b,
  v_height v = height n -> v_type v = 1%N ->
  hv_add_vote (votes n) v peer = Ok (hv, true, code) ->
  lblock n = Some lb -> lround n < v_round v -> v_round v <= round n ->
  maj23 (hv_prevotes hv (v_round v)) = Some b -> hashes_to (Some lb) (b_hash b) = false ->
  add_vote_cs c v peer n = Ok (n', o) ->
  match lblock n' with None => True | Some _ => v_round v <= lround n' end.
Proof. exact late_polka_releases_lock. Qed.
Print Assumptions c12_late_polka_releases_lock.

(* non-vacuity: four validators; the node locks a block in round 0, is taken to round 3 by +2/3
   nil precommits of round 2, and then receives the nil prevotes of round 1 it had missed: the
   third one meets every premise of (3) and the node ends unlocked *)
Definition ux_a (k : N) : bytes := [k].
Definition ux_n0 : res node :=
  match new_valset [mkVal (ux_a 1) (ux_a 1) 1 0 false; mkVal (ux_a 2) (ux_a 2) 1 0 false;
                    mkVal (ux_a 3) (ux_a 3) 1 0 false; mkVal (ux_a 4) (ux_a 4) 1 0 false] with
  | Ok vs => init_node 1 vs None (Some (ux_a 1)) (mkSg 0 0 0 None) | _ => Panic 0 end.
Definition ux_B : blk := mkBlk [7%N] 1 [8%N] true.
Definition ux_vote (i : Z) (who : N) (t : N) (r : Z) (b : block_id) : vote :=
  mkVote (ux_a who) i 1 r t b [who; Z.to_N r; t] true.
Definition ux_inputs : list input :=
  [ITimeout 1 0 1; IProposal (mkProp 1 0 (-1) 1 [8%N]) (ux_a 1) []; IPart 1 0 0 ux_B true [];
   IVote (ux_vote 0 1 1 0 (blk_bid ux_B)) []; IVote (ux_vote 1 2 1 0 (blk_bid ux_B)) (ux_a 2);
   IVote (ux_vote 2 3 1 0 (blk_bid ux_B)) (ux_a 3);
   IVote (ux_vote 1 2 2 2 nil_bid) (ux_a 2); IVote (ux_vote 2 3 2 2 nil_bid) (ux_a 3); IVote (ux_vote 3 4 2 2 nil_bid) (ux_a 4);
   IVote (ux_vote 1 2 1 1 nil_bid) (ux_a 2); IVote (ux_vote 2 3 1 1 nil_bid) (ux_a 3)].
Definition ux_v : vote := ux_vote 3 4 1 1 nil_bid.
Example c12_release_nonvacuous :
  match ux_n0 with
  | Ok n0 =>
    match run (mkCfg false) ux_inputs n0 with
    | Ok n =>
      (v_height ux_v =? height n) && N.eqb (v_type ux_v) 1 && (round n =? 3) &&
      (match lblock n with Some lb => bytes_eqb (bk_hash lb) [7%N] | None => false end) &&
      (lround n <? v_round ux_v) && (v_round ux_v <=? round n) &&
      (match hv_add_vote (votes n) ux_v (ux_a 4) with
       | Ok (hv, true, _) => match maj23 (hv_prevotes hv (v_round ux_v)) with
                             | Some b => negb (hashes_to (lblock n) (b_hash b)) | None => false end
       | _ => false end) &&
      (match add_vote_cs (mkCfg false) ux_v (ux_a 4) n with
       | Ok (n', _) => match lblock n' with None => true | Some _ => false end
       | _ => false end)
    | _ => false end
  | _ => false end = true.
Proof. vm_compute. reflexivity. Qed.

(* (4) the same as an invariant of every state a node reaches from the start of a height (any
   validator set with bounded powers, any inputs, configuration without skip-commit), while it is
   in that height and has not decided (before every input it was below the commit step): if it is
   locked on a block since round lr, every +2/3 prevote majority it holds for a round in
   (lr, its round] is for that block - no lock is kept against a later polka the node knows of -
   and no vote set of a round ahead of the node holds +2/3 of any prevotes (it would have moved the
   node there).  A node in the commit step has +2/3 precommits for a block and only waits for it;
   since repair F-12a it does not follow later rounds any more.  The engines' monitor
   "lock-kept-against-later-polka" checks the first statement on the real ConsensusState after
   every input. *)
Theorem c12_no_stale_lock :
  forall (VS : list validator), bounded VS -> forall (h0 : Z) c vs lc me s ins n0 n,
  c_skip_commit c = false -> vals_of vs = VS ->
  init_node h0 vs lc me s = Ok n0 -> run c ins n0 = Ok n -> undecided_run c ins n0 -> height n = h0 ->
  (forall lb r b, lblock n = Some lb -> lround n < r -> r <= round n ->
     maj23 (hv_prevotes (votes n) r) = Some b -> hashes_to (Some lb) (b_hash b) = true) /\
  (forall r, round n < r -> any23 (hv_prevotes (votes n) r) = false).
Proof. exact no_stale_lock. Qed.
Print Assumptions c12_no_stale_lock.

(* non-vacuity: the scenario above up to the two missed nil prevotes is such a state - height 1,
   round 3, locked since round 0 - and its validator set is bounded *)
Example c12_no_stale_lock_nonvacuous :
  match ux_n0 with
  | Ok n0 =>
    match run (mkCfg false) ux_inputs n0 with
    | Ok n => (height n =? 1) && (round n =? 3) && (lround n =? 0) &&
              (match lblock n with Some _ => true | None => false end) &&
              (match maj23 (hv_prevotes (votes n) 1) with None => true | Some _ => false end)
    | _ => false end
  | _ => false end = true /\
  match ux_n0 with Ok n0 => undecided_run (mkCfg false) ux_inputs n0 | _ => False end.
Proof. split; [vm_compute; reflexivity|]. vm_compute. repeat split. Qed.

(* (5) a decided block is finalised (finding F-12a, repaired): a node in the commit step that still
   waits for the block used to be pulled into a later round by +2/3 of any prevotes of that round -
   old messages delivered late were enough - and the round change dropped the part set of the
   decided block for good.  Since the repair the three round-skip sites of addVote act only below
   the commit step, and no input takes a node out of the commit step within the height (proposals,
   parts, votes of any round, timeouts of rounds it has reached): [c12_decided_stays_decided].
   The witness of the defect, as it should be (four validators: three precommits for block [7] in
   round 0, three late nil prevotes of round 1, then the block): the late prevotes leave the node
   where it is, and the block takes it to the next height either way. *)
Theorem c12_decided_stays_decided :
  forall c i n n' o, c_skip_commit c = false -> 8 <= step n ->
  (forall h r s, i = ITimeout h r s -> r <= round n) ->
  handle c i n = Ok (n', o) -> height n' = height n -> 8 <= step n'.
Proof. exact decided_stays. Qed.
Print Assumptions c12_decided_stays_decided.

Definition rx_vote (i : Z) (who : N) (t : N) (r : Z) (b : block_id) : vote :=
  mkVote (ux_a who) i 1 r t b [who; Z.to_N r; t] true.
Definition rx_decided : list input :=
  [ITimeout 1 0 1; IVote (rx_vote 1 2 2 0 (blk_bid ux_B)) (ux_a 2); IVote (rx_vote 2 3 2 0 (blk_bid ux_B)) (ux_a 3);
   IVote (rx_vote 3 4 2 0 (blk_bid ux_B)) (ux_a 4)].
Definition rx_late_prevotes : list input :=
  [IVote (rx_vote 1 2 1 1 nil_bid) (ux_a 2); IVote (rx_vote 2 3 1 1 nil_bid) (ux_a 3); IVote (rx_vote 3 4 1 1 nil_bid) (ux_a 4)].
Definition rx_block : list input := [IPart 1 0 0 ux_B true (ux_a 2)].
Definition rx_summary (r : res node) : option (Z * Z * Z * bool * bool) :=
  match r with
  | Ok n => Some (height n, round n, step n, match pparts n with Some _ => true | None => false end,
                  match maj23 (hv_precommits (votes n) 0) with Some _ => true | None => false end)
  | _ => None end.
Example c12_decided_block_is_finalised :
  exists n0, ux_n0 = Ok n0 /\
  rx_summary (run (mkCfg false) rx_decided n0) = Some (1, 0, 8, true, true) /\
  rx_summary (run (mkCfg false) (rx_decided ++ rx_block) n0) = Some (2, 0, 1, false, false) /\
  rx_summary (run (mkCfg false) (rx_decided ++ rx_late_prevotes) n0) = Some (1, 0, 8, true, true) /\
  rx_summary (run (mkCfg false) (rx_decided ++ rx_late_prevotes ++ rx_block) n0) = Some (2, 0, 1, false, false).
Proof.
  eexists. split; [vm_compute; reflexivity|]. repeat split; vm_compute; reflexivity.
Qed.
