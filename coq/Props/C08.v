(* C08  No peer input can crash or wedge an honest node.
   Only property theorems (closed by [exact]) and assumption reports.
   Models: Model/Wire.v for the bytes a peer sends (every registered message type is decoded by
   the decoder proved total in C18), Model/Node.v for the messages the reactor hands to the state
   machine.  The "peerinput" engine drives the real ConsensusReactor.Receive and state machine
   with hostile traffic in seven receiver situations and compares the state machine with the
   model after every message; panics inside Receive are recovered by MConnection.recvRoutine
   (the peer is dropped), panics in the state machine are violations.  Block sync, mempool and
   peer-exchange reactors and the goroutine structure are outside the model (partial). *)
From Coq Require Import List NArith ZArith Bool.
From AnnVerif Require Import Base.Res Base.Bytes Model.VoteSet Model.ValSet Model.Node
 Proofs.WireProofs Proofs.NodeProofs Proofs.NodeSteps Proofs.RobustProofs.
Import ListNotations.
Open Scope Z_scope.

(* (1) whatever bytes arrive, decoding them under the channel's limit returns a message or an
   error, never a panic *)
Theorem c08_decoding_never_panics : forall t lmt n bs w, Wire.decode t lmt n bs <> Panic w.
Proof. exact decode_never_panics. Qed.
Print Assumptions c08_decoding_never_panics.

(* (2) a proposal cannot make the node panic (negative and absurd part counts, POL rounds, heights
   included) as long as the node's own validator set has a proposer *)
Theorem c08_proposal_never_panics :
  forall p signer n w, set_proposal p signer n = Panic w -> forall a vs', proposer (vals n) <> Ok (Some a, vs').
Proof. exact proposal_never_panics. Qed.
Print Assumptions c08_proposal_never_panics.

(* (3) messages that fail validation leave the consensus state exactly as it was *)
Theorem c08_refused_proposal_changes_nothing :
  forall p signer n n' o code, set_proposal p signer n = Ok (n', o) -> In (OErr code) o -> same_but_cache n n'.
Proof. exact refused_proposal_changes_nothing. Qed.
Print Assumptions c08_refused_proposal_changes_nothing.
Theorem c08_ignored_proposal_changes_nothing :
  forall p signer n n' o, set_proposal p signer n = Ok (n', o) ->
  (negb (p_height p =? height n) || negb (p_round p =? round n) = true \/ 8 <= step n \/ proposal n <> None) -> n' = n.
Proof. exact ignored_proposal_changes_nothing. Qed.
Print Assumptions c08_ignored_proposal_changes_nothing.
Theorem c08_refused_part_changes_nothing :
  forall c h idx b ok verify n,
  (negb (height n =? h) = true \/ pparts n = None \/
   (exists ps, pparts n = Some ps /\ ((idx <? 0) || (ps_total ps <=? idx) = true \/ existsb (Z.eqb idx) (ps_have ps) = true \/
       verify && negb (Z.eqb (bk_total b) (ps_total ps) && bytes_eqb (bk_phash b) (ps_hash ps)) = true))) ->
  exists o, add_part c h idx b ok verify n = Ok (n, o).
Proof. exact refused_part_changes_nothing. Qed.
Print Assumptions c08_refused_part_changes_nothing.
Theorem c08_foreign_height_vote_changes_nothing :
  forall c v peer n, v_height v + 1 <> height n -> v_height v <> height n -> add_vote_cs c v peer n = Ok (n, [OErr 10]).
Proof. exact foreign_height_vote_changes_nothing. Qed.
Print Assumptions c08_foreign_height_vote_changes_nothing.

(* (4) a peer cannot make the node track more than two rounds beyond its own *)
Theorem c08_catchup_rounds_bounded :
  forall h v peer h' a c, peers_bounded h -> hv_add_vote h v peer = Ok (h', a, c) -> peers_bounded h'.
Proof. exact catchup_rounds_bounded. Qed.
Print Assumptions c08_catchup_rounds_bounded.

(* (5) whatever a peer sends, the lock invariant survives and nothing seen is lost *)
Theorem c08_any_input_keeps_invariant : forall c i n n' o, handle c i n = Ok (n', o) -> G n n'.
Proof. exact (fun c i => sat_handle c i). Qed.
Print Assumptions c08_any_input_keeps_invariant.
