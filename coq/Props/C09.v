(* C09  Transaction execution is total, atomic and replay-protected.
   Only property theorems (closed by [exact]), assumption reports and examples.
   Model: Model/TxExec.v - a transaction as the application sees it (does a sender recover, which
   one, the nonce, is the rest in order), the nonce check and increment, the snapshot / revert
   wrapper of genExecFun, the block as a fold.  The rest of the state is the log of applied
   transactions.  The "evmapp" engine executes generated blocks on the real application and
   compares every verdict and the senders' nonces after every block with this model. *)
From Coq Require Import List NArith Bool.
From AnnVerif Require Import Model.TxExec Proofs.TxProofs.
Import ListNotations.
Open Scope N_scope.

(* (1) totality: exec_checked / exec_block are total functions - every transaction gets a verdict *)
Theorem c09_every_transaction_gets_a_verdict :
  forall s txs, length (snd (exec_block s txs)) = length txs.
Proof. exact exec_block_length. Qed.
Print Assumptions c09_every_transaction_gets_a_verdict.

(* (2) atomicity, one transaction: reported invalid = state exactly as before (the nonce raised
   before the failure is taken back by the revert) *)
Theorem c09_invalid_leaves_state_unchanged :
  forall s t s', exec_checked s t = (s', false) -> s' = s.
Proof. exact exec_invalid_unchanged. Qed.
Print Assumptions c09_invalid_leaves_state_unchanged.

(* (3) atomicity, whole block: the state after a block is the state after the block with every
   invalid transaction left out - at any position, any number of them *)
Theorem c09_block_as_if_invalid_absent :
  forall s txs,
  let '(s', vs) := exec_block s txs in
  exec_block s (applied txs vs) = (s', map (fun _ => true) (applied txs vs)).
Proof. exact exec_block_filter. Qed.
Print Assumptions c09_block_as_if_invalid_absent.

Theorem c09_one_invalid_absent :
  forall s a t b,
  snd (exec_checked (fst (exec_block s a)) t) = false ->
  fst (exec_block s (a ++ t :: b)) = fst (exec_block s (a ++ b)).
Proof. exact exec_block_drop_invalid. Qed.
Print Assumptions c09_one_invalid_absent.

(* (4) the nonce rule: applied iff a sender recovers, the nonce equals the sender's current nonce
   and the rest is in order; applying raises exactly that nonce by exactly one *)
Theorem c09_applied_iff_current_nonce :
  forall s t,
  snd (exec_checked s t) = true <->
  exists a, t_sender t = Some a /\ nonce_of (nonces s) a = t_nonce t /\ t_ok t = true.
Proof. exact exec_valid_iff. Qed.
Print Assumptions c09_applied_iff_current_nonce.

Theorem c09_applied_raises_nonce_by_one :
  forall s t s' a,
  exec_checked s t = (s', true) -> t_sender t = Some a ->
  nonce_of (nonces s') a = nonce_of (nonces s) a + 1 /\
  (forall b, b <> a -> nonce_of (nonces s') b = nonce_of (nonces s) b).
Proof. exact exec_valid_nonce. Qed.
Print Assumptions c09_applied_raises_nonce_by_one.

(* (5) replay protection over any sequence of transactions (blocks concatenated): for every sender
   and nonce at most one transaction is ever applied, and the bytes of an applied transaction are
   invalid at every later position *)
Theorem c09_at_most_once :
  forall s txs a n, (count_applied a n txs (snd (exec_block s txs)) <= 1)%nat.
Proof. exact at_most_once. Qed.
Print Assumptions c09_at_most_once.

Theorem c09_replayed_transaction_is_invalid :
  forall s a t b,
  snd (exec_checked (fst (exec_block s a)) t) = true ->
  forall c, snd (exec_checked (fst (exec_block s (a ++ t :: b ++ c))) t) = false.
Proof. intros s a t b H c. exact (replay_invalid s a t (b ++ c) H). Qed.
Print Assumptions c09_replayed_transaction_is_invalid.

(* non-vacuity: a block with a good transaction, a failing one at the right nonce (its nonce
   increment is reverted), a stale replay, an unrecoverable one and the next good one *)
Definition ex_t0 := mkTx 10 (Some 1) 0 true.
Definition ex_bad := mkTx 11 (Some 1) 1 false.
Definition ex_nosig := mkTx 12 None 1 true.
Definition ex_t1 := mkTx 13 (Some 1) 1 true.
Example c09_nonvacuous :
  exec_block (mkSt [] []) [ex_t0; ex_bad; ex_t0; ex_nosig; ex_t1] =
  (mkSt [(1, 2)] [10; 13], [true; false; false; false; true]) /\
  run_tx (mkSt [(1, 1)] [10]) 1 ex_bad = (mkSt [(1, 2)] [10], false).
Proof. vm_compute. split; reflexivity. Qed.
