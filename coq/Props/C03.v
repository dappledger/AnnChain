(* C03  No equivocation: at most one signature per height/round/step, across restarts.
   Only property theorems (closed by [exact]), assumption reports and examples.
   Model: Model/Signer.v (gemmill/types/priv_validator.go signBytesHRS/save, go-common
   WriteFileAtomic).  The theorems quantify over every history of signing requests (any height,
   round, step, sign-bytes - "even when the consensus logic asks it to"), where each request may
   end normally, with a failing write, or with the process dying before or after the rename of
   WriteFileAtomic and restarting from the file, plus restarts at any other moment. *)
From Coq Require Import List NArith ZArith Bool.
From AnnVerif Require Import Base.Bytes Model.Signer Proofs.SignerProofs.
Import ListNotations.
Open Scope Z_scope.

(* (1) two released signatures for one height/round/step carry the same sign-bytes (and are the
   same signature) *)
Theorem c03_no_double_sign :
  forall (sign : bytes -> bytes) ops x y,
  In x (releases (snd (srun sign signer0 ops))) -> In y (releases (snd (srun sign signer0 ops))) ->
  rl_h x = rl_h y -> rl_r x = rl_r y -> rl_s x = rl_s y -> rl_b x = rl_b y /\ rl_sig x = rl_sig y.
Proof. exact no_double_sign. Qed.
Print Assumptions c03_no_double_sign.

(* (2) released signatures never go back: each one is strictly later in (height, round, step)
   than every earlier one, or is the very same signed bytes again *)
Theorem c03_monotone :
  forall (sign : bytes -> bytes) ops pre x post,
  releases (snd (srun sign signer0 ops)) = pre ++ x :: post ->
  forall y, In y pre -> rel_le y x.
Proof. intros sign ops. exact (srun_ordered sign ops signer0 eq_refl). Qed.
Print Assumptions c03_monotone.

(* (3) a signature leaves the signer only when the durable record already forbids contradicting
   it: it is at that height/round/step with exactly those sign-bytes, or beyond it *)
Theorem c03_durable_before_release :
  forall (sign : bytes -> bytes) st o x, vol st = dur st ->
  released_of o (snd (sstep sign st o)) = Some x -> covers (dur (fst (sstep sign st o))) x.
Proof. exact durable_before_release. Qed.
Print Assumptions c03_durable_before_release.

(* in-memory and durable records agree after every operation, in every reachable state *)
Theorem c03_vol_eq_dur :
  forall (sign : bytes -> bytes) ops, vol (fst (srun sign signer0 ops)) = dur (fst (srun sign signer0 ops)).
Proof. intros sign ops. exact (srun_SInv sign ops signer0 eq_refl). Qed.
Print Assumptions c03_vol_eq_dur.

(* non-vacuity: a history with a crash after the rename, a conflicting request, a failing
   write and regressions; exactly the expected releases come out *)
Definition idsign (b : bytes) : bytes := 7%N :: b.
Example c03_nonvacuous :
  let ops := [SSign 1 0 2 [1]%N SaveOk; SSign 1 0 2 [2]%N SaveOk; SSign 1 0 3 [3]%N CrashAfterRename;
              SSign 1 0 3 [4]%N SaveOk; SSign 1 0 3 [3]%N SaveOk; SSign 1 1 2 [5]%N SaveFails;
              SSign 1 1 2 [6]%N CrashBeforeRename; SSign 1 1 2 [6]%N SaveOk; SSign 1 0 3 [3]%N SaveOk; SReload] in
  map (fun x => (rl_h x, rl_r x, rl_s x, rl_b x)) (releases (snd (srun idsign signer0 ops))) =
    [(1, 0, 2, [1]%N); (1, 0, 3, [3]%N); (1, 1, 2, [6]%N)].
Proof. vm_compute. reflexivity. Qed.
