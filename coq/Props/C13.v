(* C13  Fast sync applies only blocks justified by +2/3 commits; ends in same state.
   Only property theorems (closed by [exact]), assumption reports and examples.
   Model: Model/Sync.v - the block pool as at most one block per height with the peer it came from,
   the sync loop (peek two, verify the first with the last commit of the second under the
   validator set, pop and apply, or drop both peers), responses and peer removals in any order -
   on top of the C15 model of VerifyCommit.  The "blocksync" engine runs a complete node against
   scripted peers over the real channel and validates what the node stored against this model. *)
From Coq Require Import List NArith ZArith Bool.
From AnnVerif Require Import Base.Res Model.VoteSet Model.Sync Proofs.PowerSum Proofs.VoteSetProofs Proofs.SyncProofs.
Import ListNotations.
Open Scope Z_scope.

(* (1) for every sequence of responses (from anyone, for any height, in any order, repeated),
   peer removals and sync-loop iterations: the applied blocks are heights 1, 2, .. in order and
   each one has a commit that VerifyCommit accepts for exactly its block id at its height *)
Theorem c13_only_justified_blocks_applied :
  forall vals es,
  let s := sync_run (sync0 vals) es in store_ok vals (s_store s) (s_height s).
Proof. exact sync_sound. Qed.
Print Assumptions c13_only_justified_blocks_applied.

(* (2) hence: validly signed precommits for exactly that block, at that height, of one round, from
   distinct validators holding more than two thirds of the voting power *)
Theorem c13_applied_block_has_two_thirds :
  forall vals es b, bounded vals -> In b (s_store (sync_run (sync0 vals) es)) ->
  exists c, length (c_pre c) = length vals /\
            two_thirds vals <
            pow_of vals (fun i => match nth i (c_pre c) None with
                                  | Some v => good_full (sb_id b) (sb_height b) (commit_round c) v
                                  | None => false end).
Proof. exact applied_block_has_two_thirds. Qed.
Print Assumptions c13_applied_block_has_two_thirds.

(* (3) with agreement (C01: at most one block id per height can gather such a commit) the applied
   chain is the one consensus decided, whatever the peers served *)
Theorem c13_applied_chain_is_the_decided_one :
  forall vals es (canon : Z -> block_id),
  (forall h id c, verify_commit vals id h c = Ok tt -> id = canon h) ->
  forall b, In b (s_store (sync_run (sync0 vals) es)) -> sb_id b = canon (sb_height b).
Proof. exact applied_chain_is_canonical. Qed.
Print Assumptions c13_applied_chain_is_the_decided_one.

(* (4) without a verifying commit on offer the height does not move *)
Theorem c13_no_commit_no_progress :
  forall s,
  (forall p1 f p2 sd, pool_get (s_pool s) (s_height s) = Some (p1, f) ->
                      pool_get (s_pool s) (s_height s + 1) = Some (p2, sd) ->
                      verify_commit (s_vals s) (sb_id f) (s_height s) (sb_last sd) <> Ok tt) ->
  s_height (sync_step s ETick) = s_height s /\ s_store (sync_step s ETick) = s_store s.
Proof. exact tick_needs_commit. Qed.
Print Assumptions c13_no_commit_no_progress.

(* non-vacuity: three validators (powers 2, 1, 2); a forged block 1 arrives first and is thrown
   out with its peer, the genuine one is applied with two of three signatures *)
Definition ex_vals : list validator := [([1%N], 2); ([2%N], 1); ([3%N], 2)].
Definition ex_id (n : N) : block_id := mkBid [n] 1 [n].
Definition ex_vote (i : Z) (h : Z) (id : block_id) : option vote := Some (mkVote [] i h 0 2 id [] true).
Definition ex_b1 := mkSB (ex_id 10) 1 (mkCommit (ex_id 0) []).
Definition ex_b1_forged := mkSB (ex_id 66) 1 (mkCommit (ex_id 0) []).
Definition ex_b2 := mkSB (ex_id 20) 2 (mkCommit (ex_id 10) [ex_vote 0 1 (ex_id 10); None; ex_vote 2 1 (ex_id 10)]).
Example c13_nonvacuous :
  let s := sync_run (sync0 ex_vals) [EResp 7 ex_b1_forged; EResp 1 ex_b2; ETick; EResp 1 ex_b1; EResp 1 ex_b2; ETick] in
  s_height s = 2 /\ s_store s = [ex_b1] /\
  s_store (sync_run (sync0 ex_vals) [EResp 7 ex_b1_forged; EResp 1 ex_b2; ETick]) = [].
Proof. vm_compute. repeat split. Qed.

(* (5) the loop as the code runs it - the commit check of a block and its removal from the pool are
   separate steps, and responses and peer removals happen in between (a removed peer's requester is
   emptied and may be filled by another peer's block for the same height): for EVERY interleaving
   the applied blocks are heights 1, 2, .. in order, each justified by a commit VerifyCommit accepts *)
Theorem c13_check_and_pop_interleaved :
  forall vals es, let s := s2_s (sync2_run (sync2_0 vals) es) in store_ok vals (s_store s) (s_height s).
Proof. exact sync2_sound. Qed.
Print Assumptions c13_check_and_pop_interleaved.

(* (6) the block id a commit carries for itself plays no part: only the precommits inside count *)
Theorem c13_commit_label_irrelevant :
  forall vals b h l1 l2 pre, verify_commit vals b h (mkCommit l1 pre) = verify_commit vals b h (mkCommit l2 pre).
Proof. exact commit_label_irrelevant. Qed.
Print Assumptions c13_commit_label_irrelevant.

(* non-vacuity: block 1 is checked; its peer is removed and a forged block 1 from another peer fills
   the emptied slot before the pop: what is applied is the block that was checked *)
Example c13_interleaved_nonvacuous :
  let t := sync2_run (sync2_0 ex_vals) [E2Resp 1 ex_b1; E2Resp 1 ex_b2; E2Check; E2Remove 1; E2Resp 7 ex_b1_forged; E2Pop] in
  s_store (s2_s t) = [ex_b1] /\ s_height (s2_s t) = 2 /\
  s2_checked (sync2_run (sync2_0 ex_vals) [E2Resp 1 ex_b1; E2Resp 1 ex_b2; E2Check]) = Some ex_b1 /\
  pool_get (s_pool (s2_s (sync2_run (sync2_0 ex_vals) [E2Resp 1 ex_b1; E2Resp 1 ex_b2; E2Check; E2Remove 1; E2Resp 7 ex_b1_forged]))) 1
    = Some (7%N, ex_b1_forged).
Proof. vm_compute. repeat split. Qed.
