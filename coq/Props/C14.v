(* C14  Validator-set changes need +2/3 of distinct validators and apply uniformly.
   Only property theorems (closed by [exact]), assumption reports and examples.
   Model: Model/AdminOp.v (gemmill/plugin/admin_op.go, after the F-14a and F-14c repairs) over
   Model/ValSet.v.  [wf_vals]: the plugin's current set is sorted, has non-negative powers with a
   total below 2^62 and a total-power cache that is empty or right (C16 gives sortedness; the
   cache clause is what the seeded stale-cache mutations break, and the correspondence checks it). *)
From Coq Require Import List NArith ZArith Lia Bool.
From AnnVerif Require Import Base.Res Model.ValSet Model.AdminOp
 Proofs.ValSetProofs Proofs.AdminProofs.
Import ListNotations.
Open Scope Z_scope.

(* (1) a request is accepted only if distinct current validators of positive power with a valid
   signature over exactly that request hold more than two thirds of the total power (every signer
   counted once: [wsum] adds each validator of the set at most once), the submitting account is the
   one named in the signed request, its nonce is the signed nonce + 1, and the command is known *)
Theorem c14_accept_needs_two_thirds_distinct :
  forall st c from nonce st', wf_vals (ad_vals st) ->
  exec_tx st c from nonce = (st', 0%N) ->
  wsum (fun _ => true) (vl (ad_vals st)) * 2 / 3 < wsum (signed_by (ac_sigs c)) (vl (ad_vals st)) /\
  ac_type_ok c = true /\ ac_parse_ok c = true /\ from = at_from (ac_attr c) /\
  u64 (at_nonce (ac_attr c) + 1) = nonce.
Proof. exact exec_tx_accept. Qed.
Print Assumptions c14_accept_needs_two_thirds_distinct.

(* (2) an under-signed, mis-addressed, wrong-nonce, malformed or unknown request changes nothing *)
Theorem c14_rejected_changes_nothing :
  forall st c from nonce st' code, exec_tx st c from nonce = (st', code) -> code <> 0%N ->
  ad_changed st' = ad_changed st /\ vl (ad_vals st') = vl (ad_vals st).
Proof. exact exec_tx_reject. Qed.
Print Assumptions c14_rejected_changes_nothing.

Theorem c14_pending_grows_by_request_only :
  forall st c from nonce st' code, exec_tx st c from nonce = (st', code) ->
  ad_changed st' = ad_changed st \/ ad_changed st' = ad_changed st ++ [ac_attr c].
Proof. exact exec_tx_pending. Qed.
Print Assumptions c14_pending_grows_by_request_only.

(* (3) a replayed request changes nothing: once the block that carried it is applied, the
   request is [settled], and a settled request leaves pending list and set untouched whatever
   checks it passes *)
Theorem c14_applied_settles :
  forall vs a vs', sorted (vl vs) -> end_block (mkAdmin vs [a]) = Ok vs' -> settled (ad_vals vs') a.
Proof. exact applied_settles. Qed.
Print Assumptions c14_applied_settles.
Theorem c14_replay_noop :
  forall st c from nonce st' code, settled (ad_vals st) (ac_attr c) ->
  exec_tx st c from nonce = (st', code) ->
  ad_changed st' = ad_changed st /\ vl (ad_vals st') = vl (ad_vals st).
Proof. exact replay_noop. Qed.
Print Assumptions c14_replay_noop.

(* (4) the change is applied by a total function of (current set, pending list) - the same on
   every replica -, never fails (two removals of one validator in a block included), and yields a
   sorted, duplicate-free set *)
Theorem c14_apply_total : forall changed next, exists next', update_validators next changed = Ok next'.
Proof. exact update_validators_total. Qed.
Print Assumptions c14_apply_total.
Theorem c14_apply_sorted :
  forall st st', sorted (vl (ad_vals st)) -> end_block st = Ok st' ->
  sorted (vl (ad_vals st')) /\ ad_changed st' = [].
Proof. exact end_block_sorted. Qed.
Print Assumptions c14_apply_sorted.

(* non-vacuity: 4 validators of power 10; three distinct signers are accepted, the same signer
   three times is not *)
Definition v4 : valset :=
  mkVSet [mkVal [1]%N [] 10 0 true; mkVal [2]%N [] 10 0 true; mkVal [3]%N [] 10 0 true; mkVal [4]%N [] 10 0 true] None 0.
Definition req (sigs : list siginfo) : admincmd :=
  mkCmd true true (mkAttr [9]%N [9]%N 5 CAdd [7]%N 3) true sigs.
Example c14_nonvacuous :
  wf_vals v4 /\
  snd (exec_tx (mkAdmin v4 []) (req [mkSig [1]%N true; mkSig [2]%N true; mkSig [3]%N true]) [7]%N 4) = 0%N /\
  snd (exec_tx (mkAdmin v4 []) (req [mkSig [1]%N true; mkSig [1]%N true; mkSig [1]%N true]) [7]%N 4) = 1%N /\
  snd (exec_tx (mkAdmin v4 []) (req [mkSig [1]%N true; mkSig [2]%N true; mkSig [3]%N true]) [7]%N 5) = 5%N.
Proof.
  split; [|vm_compute; auto].
  unfold wf_vals. split; [|split; [|split; [vm_compute; reflexivity|left; reflexivity]]].
  - unfold sorted, sortedA. cbn. repeat constructor.
  - intros v Hv. cbn in Hv. intuition (subst; cbn; lia).
Qed.
