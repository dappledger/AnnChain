(* C15  Vote accounting: a 2/3 majority is reported exactly when it exists.
   Only the property theorems (closed by [exact]), their assumption reports and non-vacuity
   examples.  Model: Model/VoteSet.v (gemmill/types/vote_set.go, validator_set.go VerifyCommit,
   block.go Commit).  All theorems quantify over every validator set below the int64 boundary
   ([bounded]: non-negative powers, total < 2^62) and every sequence of AddVote / SetPeerMaj23
   operations with arbitrary (valid, duplicate, conflicting, mis-signed, mis-indexed, other-step)
   votes, starting from NewVoteSet. *)
From Coq Require Import List NArith ZArith Lia Bool.
From AnnVerif Require Import Base.Res Base.Bytes Model.VoteSet Proofs.PowerSum Proofs.VoteSetProofs.
Import ListNotations.
Open Scope Z_scope.

(* (1) soundness: a reported majority for b is backed by valid votes for exactly b from distinct
   validators (each index counted once) holding more than two thirds of the total power *)
Theorem c15_maj23_sound :
  forall vals H R T, bounded vals -> forall vs0, new_voteset H R T vals = Ok vs0 ->
  forall ops b, vs_maj23 (vs_run vs0 ops) = Some b ->
  two_thirds vals < pow_of vals (voted_for vals H R T (offered_of ops) b).
Proof. exact maj23_sound. Qed.
Print Assumptions c15_maj23_sound.

(* (2) completeness: when the validators whose primary (first valid) vote is for b hold more than
   two thirds, a majority is reported; and as soon as any tracked tally reaches the quorum *)
Theorem c15_maj23_complete :
  forall vals H R T, bounded vals -> forall vs0, new_voteset H R T vals = Ok vs0 ->
  forall ops b,
  two_thirds vals < pow_of vals (fun i => match nth i (vs_votes (vs_run vs0 ops)) None with
                                          | Some w => bid_eqb (v_bid w) b | None => false end) ->
  vs_maj23 (vs_run vs0 ops) <> None.
Proof. exact maj23_complete. Qed.
Print Assumptions c15_maj23_complete.

Theorem c15_maj23_complete_tally :
  forall vals H R T, bounded vals -> forall vs0, new_voteset H R T vals = Ok vs0 ->
  forall ops key bv, lookup key (vs_byblock (vs_run vs0 ops)) = Some bv -> two_thirds vals < bv_sum bv ->
  vs_maj23 (vs_run vs0 ops) <> None.
Proof. exact maj23_complete_tally. Qed.
Print Assumptions c15_maj23_complete_tally.

(* (3) stability: a reported majority never changes or disappears *)
Theorem c15_maj23_stable :
  forall vs0 ops more b, vs_maj23 (vs_run vs0 ops) = Some b -> vs_maj23 (vs_run vs0 (ops ++ more)) = Some b.
Proof. exact maj23_stable. Qed.
Print Assumptions c15_maj23_stable.

(* (4) each validator's power counts at most once, in the running sum and in every tally *)
Theorem c15_counted_once :
  forall vals H R T, bounded vals -> forall vs0, new_voteset H R T vals = Ok vs0 ->
  forall ops, let vs := vs_run vs0 ops in
  vs_sum vs = pow_of vals (fun i => is_some (nth i (vs_votes vs) None)) /\
  (forall key bv, lookup key (vs_byblock vs) = Some bv ->
     bv_sum bv = pow_of vals (fun i => is_some (nth i (bv_votes bv) None))) /\
  (has_two_thirds_any vs = true <-> two_thirds vals < pow_of vals (fun i => is_some (nth i (vs_votes vs) None))) /\
  (has_all vs = true <-> pow_of vals (fun i => is_some (nth i (vs_votes vs) None)) = pow_of vals (fun _ => true)).
Proof. exact counted_once. Qed.
Print Assumptions c15_counted_once.

(* (5) AddVote is total (no panic), only valid votes are added, rejected votes change nothing *)
Theorem c15_add_vote_total :
  forall vals H R T, bounded vals -> forall vs0, new_voteset H R T vals = Ok vs0 ->
  forall ops v, exists vs' a c, add_vote (vs_run vs0 ops) v = Ok (vs', a, c).
Proof. exact add_vote_total. Qed.
Print Assumptions c15_add_vote_total.

Theorem c15_added_vote_valid :
  forall vals H R T, bounded vals -> forall vs0, new_voteset H R T vals = Ok vs0 ->
  forall ops v vs' c, add_vote (vs_run vs0 ops) v = Ok (vs', true, c) -> valid vals H R T v.
Proof. exact added_vote_valid. Qed.
Print Assumptions c15_added_vote_valid.

Theorem c15_rejected_vote_noop :
  forall vals H R T, bounded vals -> forall vs0, new_voteset H R T vals = Ok vs0 ->
  forall ops v vs' a c, add_vote (vs_run vs0 ops) v = Ok (vs', a, c) ->
  (c = 1 \/ c = 2 \/ c = 3 \/ c = 4 \/ (c = 0 /\ a = false))%N -> vs' = vs_run vs0 ops.
Proof. intros vals H R T _ vs0 _ ops v vs' a c. apply add_vote_rejected. Qed.
Print Assumptions c15_rejected_vote_noop.

(* (6) conflicting votes are reported as such *)
Theorem c15_conflict_reported :
  forall vals H R T, bounded vals -> forall vs0, new_voteset H R T vals = Ok vs0 ->
  forall ops v ex, let vs := vs_run vs0 ops in
  valid vals H R T v ->
  nth (Z.to_nat (v_index v)) (vs_votes vs) None = Some ex -> v_bid ex <> v_bid v ->
  get_vote vs (Z.to_nat (v_index v)) (bid_key (v_bid v)) = None ->
  exists vs' a, add_vote vs v = Ok (vs', a, 5%N).
Proof. exact conflict_reported. Qed.
Print Assumptions c15_conflict_reported.

(* (7) the commit assembled from a majority passes commit verification for that validator set *)
Theorem c15_make_commit_verifies :
  forall vals H R, bounded vals -> forall vs0, new_voteset H R 2%N vals = Ok vs0 ->
  forall ops b, vs_maj23 (vs_run vs0 ops) = Some b ->
  exists c, make_commit (vs_run vs0 ops) = Ok c /\ c_bid c = b /\ verify_commit vals b H c = Ok tt.
Proof. exact make_commit_verifies. Qed.
Print Assumptions c15_make_commit_verifies.

(* (8) commit verification is sound: it accepts only with > 2/3 of validly signed precommits of
   that height, one single round and exactly that block id, one per validator slot *)
Theorem c15_verify_commit_sound :
  forall vals b h c, bounded vals -> verify_commit vals b h c = Ok tt ->
  length (c_pre c) = length vals /\
  two_thirds vals <
    pow_of vals (fun i => match nth i (c_pre c) None with
                          | Some v => good_full b h (commit_round c) v | None => false end).
Proof. exact verify_commit_sound. Qed.
Print Assumptions c15_verify_commit_sound.

(* the block-id key is injective (repaired; the original key was not: F-15a) *)
Theorem c15_bid_key_injective : forall a b, bid_key a = bid_key b -> a = b.
Proof. exact bid_key_inj. Qed.
Print Assumptions c15_bid_key_injective.

Definition legacy_key (b : block_id) : bytes := b_hash b ++ enc_varint (b_total b) ++ enc_bs (b_phash b).
Example c15_legacy_key_collision :
  exists a b, a <> b /\ legacy_key a = legacy_key b.
Proof.
  exists (mkBid [] 0 [0; 0]%N), (mkBid [0; 1; 2]%N 0 []). split; [discriminate|]. vm_compute. reflexivity.
Qed.

Definition ex_vals : list validator := [([1]%N, 1); ([2]%N, 1); ([3]%N, 1); ([4]%N, 1)].
Definition ex_bid := mkBid [7; 7]%N 1 [8]%N.
Definition ex_vote (i : Z) (a : N) := mkVote [a] i 5 0 2%N ex_bid [a; 99]%N true.
Example c15_nonvacuous :
  bounded ex_vals /\
  match new_voteset 5 0 2%N ex_vals with
  | Ok vs0 =>
    let ops := [OAdd (ex_vote 0 1); OAdd (ex_vote 2 3); OAdd (ex_vote 2 3); OAdd (ex_vote 3 4)] in
    vs_maj23 (vs_run vs0 ops) = Some ex_bid /\ two_thirds ex_vals = 2 /\
    pow_of ex_vals (voted_for ex_vals 5 0 2%N (offered_of ops) ex_bid) = 3
  | _ => False
  end.
Proof.
  split.
  - split; [repeat constructor; simpl; lia|vm_compute; reflexivity].
  - vm_compute. repeat split; reflexivity.
Qed.

(* beyond the boundary the Go arithmetic wraps: stated, excluded by [bounded] *)
Example c15_overflow_boundary : quorum [([1]%N, 4611686018427387904)] < 0.
Proof. vm_compute. reflexivity. Qed.
