(* C05  Replicated execution is deterministic: hashes depend only on the chain.
   Only property theorems (closed by [exact]), assumption reports and examples.
   Model: Model/TxExec.v - the slot array of the parallel signature verifier (any routine settles
   any slot in any order, the executor walks the slots in block order and waits on unsettled
   ones), OnExecute rebuilding the working state from the committed one, the per-block
   accumulators behind the receipts hash, OnCommit, and a restart that keeps only what is
   persisted.  An application history is a list of blocks (each with the verifier schedule the
   goroutines happened to take) and restarts. *)
From Coq Require Import List NArith Bool.
From AnnVerif Require Import Model.TxExec Proofs.TxProofs.
Import ListNotations.
Open Scope N_scope.

(* (1) whatever the verifier schedule, the block executes as the sequential fold: every schedule
   that settles every slot gives exactly the sequential result ... *)
Theorem c05_parallel_is_sequential :
  forall s txs sched,
  fair_sched (length txs) sched = true -> exec_block_par sched s txs = Some (exec_block s txs).
Proof. exact parallel_is_sequential. Qed.
Print Assumptions c05_parallel_is_sequential.

(* ... and no schedule at all can produce another result (an unsettled slot makes the executor
   wait, never guess) *)
Theorem c05_no_schedule_gives_another_result :
  forall s txs sched r, exec_block_par sched s txs = Some r -> r = exec_block s txs.
Proof. exact parallel_prefix_safe. Qed.
Print Assumptions c05_no_schedule_gives_another_result.

(* (2) the verdicts, the application state and the receipts of every block are a function of the
   blocks alone: any history of blocks, restarts and schedules yields run_chain of its blocks *)
Theorem c05_outputs_depend_on_chain_only :
  forall h a, acc a = [] -> fair h = true ->
  exists a', run_app a h = Some (a', run_chain (committed a) (blocks_of h)) /\ acc a' = [].
Proof. exact run_app_chain. Qed.
Print Assumptions c05_outputs_depend_on_chain_only.

(* (3) two replicas with the same blocks agree on everything, whatever their lifetimes and
   schedules *)
Theorem c05_replicas_agree :
  forall h1 h2, blocks_of h1 = blocks_of h2 -> fair h1 = true -> fair h2 = true ->
  exists a1 a2 outs, run_app app0 h1 = Some (a1, outs) /\ run_app app0 h2 = Some (a2, outs).
Proof. exact replicas_agree. Qed.
Print Assumptions c05_replicas_agree.

(* (4) the hypothesis acc = [] is what OnCommit and a restart establish; without it the receipts
   depend on the lifetime (the shape of defect 126aaac, where one accumulator was not reset) *)
Theorem c05_accumulator_reset_is_needed :
  let t := mkTx 1 (Some 0) 0 true in
  let a := mkApp (mkSt [] []) (mkSt [] []) [7] in
  exists o1 o2 x y, run_app a [EBlock [t] [O]] = Some (x, o1) /\
                    run_app a [ERestart; EBlock [t] [O]] = Some (y, o2) /\ o1 <> o2.
Proof. exact acc_reset_needed. Qed.
Print Assumptions c05_accumulator_reset_is_needed.

(* non-vacuity: two histories of the same two blocks, different schedules and a restart *)
Definition ex_a := mkTx 1 (Some 0) 0 true.
Definition ex_b := mkTx 2 None 0 true.
Definition ex_c := mkTx 3 (Some 0) 1 true.
Example c05_nonvacuous :
  match run_app app0 [EBlock [ex_a; ex_b] [1; 0]%nat; ERestart; EBlock [ex_c] [0; 0]%nat],
        run_app app0 [EBlock [ex_a; ex_b] [0; 1; 1]%nat; EBlock [ex_c] [0]%nat] with
  | Some (_, o1), Some (_, o2) =>
    o1 = o2 /\ o1 = [([true; false], (mkSt [(0, 1)] [1], [1])); ([true], (mkSt [(0, 2)] [1; 3], [3]))]
  | _, _ => False
  end /\
  exec_block_par [1%nat] (mkSt [] []) [ex_a; ex_b] = None.
Proof. vm_compute. repeat split. Qed.
