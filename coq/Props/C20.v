(* C20  P2P transport is authenticated, ordered and intact; admission rules hold.
   Only property theorems (closed by [exact]), assumption reports and examples.
   Models: Model/SecretConn.v (p2p/secret_connection.go, ideal authenticated encryption),
   Model/MConn.v (p2p/connection.go Channel), Model/Admission.v (p2p/switch.go, p2p/peer.go,
   angine.go authByCA), Model/AdmitHist.v (the same decision as a state machine over the life of a
   node whose validator set changes). *)
From Coq Require Import List NArith Bool.
From AnnVerif Require Import Base.Bytes Model.SecretConn Model.MConn Model.Admission Model.AdmitHist
 Proofs.SecretConnProofs Proofs.MConnProofs Proofs.AdmitHistProofs.
Import ListNotations.

(* (1) over an untampered wire, for ANY sizes of writes and ANY positive read-buffer sizes, no
   read fails, the bytes read so far are a prefix of the bytes written, and once the end of the
   stream is reported everything written has been read *)
Theorem c20_stream_exact :
  forall n0 ws ns, Forall (fun n => (0 < n)%nat) ns ->
  let st0 := mkRecv n0 [] (map WFrame (fst (sc_writes n0 ws))) in
  let outs := sc_reads st0 ns in
  ~ In RErr outs /\
  exists rest, delivered outs ++ rest = concat ws /\ (In REof outs -> rest = []).
Proof. exact stream_exact. Qed.
Print Assumptions c20_stream_exact.

(* (2) tampering: the wire carries the first j sealed frames and then anything that is not
   frame j - another genuine frame (replay, reordering, a frame skipped), a modified frame, or a
   cut inside a frame.  Then no clean end of stream is ever reported and what is delivered is a
   prefix of the data of those first j frames; the first read that reaches the bad item fails. *)
Theorem c20_tamper_detected :
  forall n0 ws j w tail ns,
  let frames := fst (sc_writes n0 ws) in
  (j <= length frames)%nat ->
  (match w with WFrame f => In f frames /\ f <> nth j frames (mkSealed 0 []) | _ => True end) ->
  Forall (fun n => (0 < n)%nat) ns ->
  let st0 := mkRecv n0 [] (map WFrame (firstn j frames) ++ w :: tail) in
  let outs := sc_reads st0 ns in
  ~ In REof outs /\ exists rest, delivered outs ++ rest = concat (firstn j (concat (map chunks_max ws))).
Proof. exact tamper_detected. Qed.
Print Assumptions c20_tamper_detected.

Theorem c20_bad_item_fails :
  forall st n w rest, r_buf st = [] -> r_in st = w :: rest ->
  (match w with WFrame f => sl_nonce f <> r_nonce st | _ => True end) ->
  snd (sc_read st n) = RErr.
Proof. exact sc_read_wrong. Qed.
Print Assumptions c20_bad_item_fails.

(* (3) multiplexing: for every interleaving of the channels' packets that keeps each channel's
   own order, if every message fits its channel's capacity nothing fails and every channel
   delivers exactly its messages, complete and in order; a message above capacity is never
   delivered - the connection fails first *)
Theorem c20_channel_order :
  forall cap (msgs : N -> list bytes) (l : list packet),
  (forall c, proj c l = concat (map (packetise c) (msgs c))) ->
  (forall c, Forall (fun m => (length m <= cap c)%nat) (msgs c)) ->
  snd (recv_all cap rinit l) = false /\
  forall c, on_ch c (fst (recv_all cap rinit l)) = map (fun m => (c, m)) (msgs c).
Proof. exact channel_order. Qed.
Print Assumptions c20_channel_order.

Theorem c20_over_capacity_rejected :
  forall cap c msg, (cap c < length msg)%nat -> recv_all cap rinit (packetise c msg) = ([], true).
Proof. exact over_capacity_rejected. Qed.
Print Assumptions c20_over_capacity_rejected.

(* (4) admission: an admitted peer is not on the refuse list, announced the key that signed the
   handshake challenge, is not ourselves, and - when certificate-authority admission applies to
   it - carries a valid signature by a CURRENT authority; and the decision function is exactly
   that rule on the whole configuration matrix (640 configurations, by computation) *)
Theorem c20_admission_sound :
  forall i, admission i = PeerAdmitted ->
  a_refused i = false /\ a_key_match i = true /\ a_self i = false /\
  (a_auth_by_ca i = true ->
     (a_is_validator i = true /\ a_nonval_auth i = false) \/ (a_has_ca i = true /\ a_sig i = SigCurrentCA)).
Proof. exact admission_sound. Qed.
Print Assumptions c20_admission_sound.

Theorem c20_admission_matrix :
  forallb (fun i => Bool.eqb (match admission i with PeerAdmitted => true | _ => false end) (rule i)) all_inputs = true.
Proof. exact admission_matrix. Qed.
Print Assumptions c20_admission_matrix.

(* (5) admission over histories: whatever validator-set changes and handshakes a node has seen, a
   peer is admitted only if, under the validator set in force at the moment of its handshake, it
   is not refused, announced the key it authenticated with, is not the node itself and - where
   certificate-authority admission is on - is a validator exempt from it or holds a certificate
   made by a key that is an authority in that set; and earlier decisions have no bearing on later
   ones (a run after a prefix is the run from the set in force) *)
Theorem c20_history_admission_sound :
  forall c evs vs0 vs h, In (vs, h, PeerAdmitted) (arun c vs0 evs) ->
  (exists pre post, evs = pre ++ AHandshake h :: post /\ vs = vals_after vs0 pre) /\
  refused c (h_auth h) = false /\ h_announced h = h_auth h /\ h_announced h <> ac_self c /\
  (ac_auth_by_ca c = true ->
     (is_val vs (h_announced h) = true /\ ac_nonval_auth c = false) \/
     (exists s, h_cert h = CertBy s /\ is_ca vs s = true)).
Proof. exact history_admission_sound. Qed.
Print Assumptions c20_history_admission_sound.

Theorem c20_history_is_forgotten :
  forall c pre evs vs0, arun c vs0 (pre ++ evs) = arun c vs0 pre ++ arun c (vals_after vs0 pre) evs.
Proof. exact history_is_forgotten. Qed.
Print Assumptions c20_history_is_forgotten.

(* non-vacuity: a peer certified by authority [9] is admitted; [9] stays a validator but loses its
   authority; the same handshake is refused from then on *)
Example c20_history_nonvacuous :
  let c := mkACfg true true [1%N] [] in
  let h := mkHs [5%N] [5%N] (CertBy [9%N]) in
  map snd (arun c [] [ASetVals [mkCV [9%N] true; mkCV [8%N] false]; AHandshake h;
                      ASetVals [mkCV [9%N] false; mkCV [8%N] true]; AHandshake h])
  = [PeerAdmitted; RejCA].
Proof. vm_compute. reflexivity. Qed.

(* non-vacuity: two writes read back through buffers of 2 and 9 bytes; a replayed frame; the size of
   the admission matrix *)
Example c20_nonvacuous :
  let ws := [[1; 2; 3; 4; 5]; [6; 7]]%N in
  delivered (sc_reads (mkRecv 10 [] (map WFrame (fst (sc_writes 10 ws)))) [2; 2; 2; 9; 9]%nat) = [1; 2; 3; 4; 5; 6; 7]%N /\
  (* replaying frame 0 after frame 0: error, only frame 0's data delivered *)
  (let fs := fst (sc_writes 10 ws) in
   sc_reads (mkRecv 10 [] (WFrame (nth 0 fs (mkSealed 0 [])) :: WFrame (nth 0 fs (mkSealed 0 [])) :: [])) [9; 9]%nat
     = [RData [1; 2; 3; 4; 5]%N; RErr]) /\
  length all_inputs = 640%nat.
Proof. vm_compute. repeat split; reflexivity. Qed.
