(* C18  Codecs: round-trip, bounded robust decoding, injective sign-bytes.
   Only property theorems (closed by [exact]), assumption reports and examples.
   Models: Model/Wire.v (gemmill/go-wire reflect.go, int.go, byteslice.go, time.go over type
   descriptors that the harness derives from the real Go types by reflection on every run),
   Model/Rlp.v (eth/rlp), Model/SignBytes.v (gemmill/types canonical_json.go, signable.go).
   JSON (wire.JSONBytes / ReadJSON) is not modelled beyond the canonical sign-bytes; it is covered
   by the correspondence engine's round-trip monitors only (DESIGN.md, C18). *)
From Coq Require Import List NArith ZArith Bool.
From AnnVerif Require Import Base.Res Model.Wire Model.SignBytes
 Proofs.WireProofs Proofs.RlpProofs Proofs.SignBytesProofs.
Import ListNotations.

(* (1) go-wire binary: every value a Go variable of a registered type can hold survives
   encode-then-decode, at any position in a stream, under every limit that admits its encoding
   (0 = none) *)
Theorem c18_wire_roundtrip :
  forall t v b lmt n rest, wf_ty t = true -> wf_val t v = true -> encode t v = Some b -> (0 <= n)%Z ->
  (lmt = 0 \/ n + Z.of_nat (length b) <= lmt)%Z ->
  Wire.decode t lmt n (b ++ rest) = Ok (v, (n + Z.of_nat (length b))%Z, rest).
Proof. exact (fun t => roundtrip_all t). Qed.
Print Assumptions c18_wire_roundtrip.

Theorem c18_wire_read_binary_roundtrip :
  forall t v b lmt, wf_ty t = true -> wf_val t v = true -> encode t v = Some b ->
  (lmt = 0 \/ Z.of_nat (length b) <= lmt)%Z -> read_binary t lmt b = Ok (v, Z.of_nat (length b)).
Proof. exact read_binary_roundtrip. Qed.
Print Assumptions c18_wire_read_binary_roundtrip.

(* (2) the encoding is a function of the value (deterministic by construction) and injective *)
Theorem c18_wire_encode_injective :
  forall t v1 v2 b, wf_ty t = true -> wf_val t v1 = true -> wf_val t v2 = true ->
  encode t v1 = Some b -> encode t v2 = Some b -> v1 = v2.
Proof. exact encode_injective. Qed.
Print Assumptions c18_wire_encode_injective.

(* (3) decoding arbitrary bytes under any limit returns a value or an error, never a panic *)
Theorem c18_wire_decode_never_panics :
  forall t lmt n bs w, Wire.decode t lmt n bs <> Panic w.
Proof. exact decode_never_panics. Qed.
Print Assumptions c18_wire_decode_never_panics.

(* (4) the running count is exactly the number of bytes consumed ... *)
Theorem c18_wire_count_is_consumption :
  forall t lmt n bs v n' r, Wire.decode t lmt n bs = Ok (v, n', r) ->
  exists c, bs = c ++ r /\ n' = (n + Z.of_nat (length c))%Z.
Proof. exact decode_consumed. Qed.
Print Assumptions c18_wire_count_is_consumption.

(* ... so a successful read under a limit consumed no more than the limit ... *)
Theorem c18_wire_within_limit :
  forall t lmt bs v n, lmt <> 0%Z -> read_binary t lmt bs = Ok (v, n) ->
  (n <= lmt)%Z /\ exists c r, bs = c ++ r /\ n = Z.of_nat (length c).
Proof. exact read_binary_within_limit. Qed.
Print Assumptions c18_wire_within_limit.

(* ... and the only allocation sized by the input (ReadByteSlice) is reached only with a length
   between 0 and the limit, whatever the input says *)
Theorem c18_wire_alloc_within_limit :
  forall lmt n bs len, lmt <> 0%Z -> read_bytes_alloc lmt n bs = Some len -> (0 <= len <= lmt)%Z.
Proof. exact alloc_within_limit. Qed.
Print Assumptions c18_wire_alloc_within_limit.
Theorem c18_wire_alloc_is_result_size :
  forall lmt n bs b n1 r, read_bytes lmt n bs = Ok (b, n1, r) -> read_bytes_alloc lmt n bs = Some (Z.of_nat (length b)).
Proof. exact read_bytes_ok_alloc. Qed.
Print Assumptions c18_wire_alloc_is_result_size.

(* (5) RLP: round trip on every item tree whose sizes fit 64 bits *)
Theorem c18_rlp_roundtrip : forall it, wf_item it -> Rlp.decode (Rlp.enc it) = Some it.
Proof. exact decode_encode. Qed.
Print Assumptions c18_rlp_roundtrip.

(* (6) the decoder accepts exactly the canonical encodings: whatever it accepts is the encoder's
   output for the value it returns.  Any decoder with properties (5) and (6) computes the same
   partial function, which is how "agrees with the reference implementation on every input" is
   carried: the reference is tied to this model by the same correspondence run. *)
Theorem c18_rlp_canonical : forall bs it, wfb bs -> Rlp.decode bs = Some it -> bs = Rlp.enc it.
Proof. exact decode_canonical. Qed.
Print Assumptions c18_rlp_canonical.

(* (7) two votes that share sign-bytes have the same chain id, block id, height, round and type *)
Theorem c18_vote_signbytes_injective :
  forall c1 c2 v1 v2, ascii_bytes c1 -> ascii_bytes c2 -> wf_bid (cv_bid v1) -> wf_bid (cv_bid v2) ->
  sign_bytes_vote c1 v1 = sign_bytes_vote c2 v2 -> c1 = c2 /\ vote_same v1 v2.
Proof. exact (fun c1 c2 v1 v2 _ _ => vote_injective c1 c2 v1 v2). Qed.
Print Assumptions c18_vote_signbytes_injective.

Theorem c18_proposal_signbytes_injective :
  forall c1 c2 p1 p2, ascii_bytes c1 -> ascii_bytes c2 -> wf_bytes (cp_phash p1) -> wf_bytes (cp_phash p2) ->
  wf_bid (cp_pol p1) -> wf_bid (cp_pol p2) ->
  sign_bytes_proposal c1 p1 = sign_bytes_proposal c2 p2 -> c1 = c2 /\ proposal_same p1 p2.
Proof. exact (fun c1 c2 p1 p2 _ _ => proposal_injective c1 c2 p1 p2). Qed.
Print Assumptions c18_proposal_signbytes_injective.

(* (8) a vote and a proposal never share sign-bytes *)
Theorem c18_vote_proposal_distinct :
  forall c1 c2 v p, ascii_bytes c1 -> ascii_bytes c2 -> sign_bytes_vote c1 v <> sign_bytes_proposal c2 p.
Proof. exact (fun c1 c2 v p _ _ => vote_proposal_distinct c1 c2 v p). Qed.
Print Assumptions c18_vote_proposal_distinct.

(* non-vacuity: a vote-shaped type and value meet the hypotheses and round-trip *)
Definition ex_vote_ty : ty :=
  TStruct [TBytes; TVar true; TFix 8 true; TFix 8 true; TFix 1 false;
           TStruct [TBytes; TStruct [TVar true; TBytes]];
           TIface [(1%N, TStruct [TArr 2]); (2%N, TStruct [TArr 3])]; TList (TPtr TTime)].
Definition ex_vote_val : val :=
  VL [VBs [1; 2; 3]%N; VZ (-7); VZ (-9223372036854775808); VZ 12; VZ 255;
      VL [VBs []; VL [VZ 3; VBs [9]%N]]; VI 2 (VL [VBs [7; 8; 9]%N]);
      VL [VSome (VZ 1569196800123000000); VNone]].
Example c18_nonvacuous :
  wf_ty ex_vote_ty = true /\ wf_val ex_vote_ty ex_vote_val = true /\
  match encode ex_vote_ty ex_vote_val with
  | Some b => read_binary ex_vote_ty (Z.of_nat (length b)) b = Ok (ex_vote_val, Z.of_nat (length b))
              /\ read_binary ex_vote_ty (Z.of_nat (length b) - 1) b = Err 4
  | None => False
  end /\
  read_binary ex_vote_ty 64 [8; 127; 255; 255; 255; 255; 255; 255; 255]%N = Err 4 /\
  read_bytes_alloc 0 0 [8; 127; 255; 255; 255; 255; 255; 255; 255]%N = Some 9223372036854775807%Z.
Proof. vm_compute. repeat split. Qed.
