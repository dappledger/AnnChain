(* C16  Proposer selection is deterministic and proportional to voting power.
   Only property theorems (closed by [exact]), assumption reports and examples.
   Model: Model/ValSet.v (gemmill/types/validator_set.go, validator.go).  Determinism is built
   in: every operation of the model is a function of the validator list (and the two caches),
   so what the theorems add is which functions they are. *)
From Coq Require Import List NArith ZArith Lia Bool.
From AnnVerif Require Import Base.Res Base.Bytes Model.ValSet
 Proofs.Fairness Proofs.ValSetProofs.
Import ListNotations.
Open Scope Z_scope.

(* (1) the set stays sorted by address - strictly, hence duplicate-free - under every operation *)
Theorem c16_new_sorted : forall vals vs, NoDup (map va_addr vals) -> new_valset vals = Ok vs -> sorted (vl vs).
Proof. exact new_valset_sorted. Qed.
Print Assumptions c16_new_sorted.
Theorem c16_add_sorted : forall vs x, sorted (vl vs) -> sorted (vl (fst (add vs x))).
Proof. exact add_sorted. Qed.
Print Assumptions c16_add_sorted.
Theorem c16_update_sorted : forall vs x, sorted (vl vs) -> sorted (vl (fst (update vs x))).
Proof. exact update_sorted. Qed.
Print Assumptions c16_update_sorted.
Theorem c16_remove_sorted : forall vs a, sorted (vl vs) -> sorted (vl (fst (remove vs a))).
Proof. exact remove_sorted. Qed.
Print Assumptions c16_remove_sorted.
Theorem c16_increment_sorted : forall vs t vs', increment vs t = Ok vs' -> sorted (vl vs) -> sorted (vl vs').
Proof. exact increment_sorted. Qed.
Print Assumptions c16_increment_sorted.
Theorem c16_sorted_nodup : forall l, sorted l -> NoDup (map va_addr l).
Proof. exact sorted_nodup. Qed.
Print Assumptions c16_sorted_nodup.

(* (2) skipping rounds selects the same proposer as going through every round *)
Theorem c16_batched_eq_singles : forall vs a b, 0 <= a -> 0 <= b ->
  increment vs (a + b) = match increment vs a with Ok vs' => increment vs' b | e => e end.
Proof. exact batched_eq_singles. Qed.
Print Assumptions c16_batched_eq_singles.

(* (3) proportional selection.  [at_step ps addrs m vs]: vs has powers ps, addresses addrs and the
   accumulators reached after m single increments from all-zero accumulators (NewValidatorSet on
   zero-accum validators gives m = 1: c16_new_at_step).  From m = 0, for EVERY offset s, the next
   s + T single increments do not fail and, in the last T of them - i.e. in every window of
   T = total power consecutive selections - validator i is named exactly ps[i] times. *)
Theorem c16_fair_every_window :
  forall (ps : list Z) (addrs : list bytes), (forall i, 0 <= nth i ps 0) ->
  0 < sumZ ps -> sumZ ps * sumZ ps < 1152921504606846976 ->
  forall vs s, at_step ps addrs 0 vs ->
  exists sel vs',
    mrun vs (s + Z.to_nat (sumZ ps)) = Ok (map (fun i => Some (nth i addrs [])) sel, vs') /\
    length sel = (s + Z.to_nat (sumZ ps))%nat /\
    forall i, cnt (skipn s sel) i = nth i ps 0.
Proof. exact fair_every_window. Qed.
Print Assumptions c16_fair_every_window.

Theorem c16_new_at_step : forall vals vs,
  (forall v, In v vals -> va_accum v = 0) ->
  let ps := powers (sort_vals vals) in
  (forall i, 0 <= nth i ps 0) -> 0 < sumZ ps -> sumZ ps * sumZ ps < 1152921504606846976 ->
  new_valset vals = Ok vs -> at_step ps (map va_addr (sort_vals vals)) 1 vs.
Proof. exact new_valset_at_step. Qed.
Print Assumptions c16_new_at_step.

(* (4) full statements that are FALSE of the faithful model (and of the code); witnesses by
   computation.  F-16b: the proposer named by a set differs from the proposer named after the set
   went through persistence (the cache is not persisted and is recomputed as "greatest accum").
   F-16c: exact proportionality does not hold in windows that follow a membership change,
   because accumulators are not re-centred. *)
Definition ex3 : list val16 :=
  [mkVal [1]%N [] 1 0 false; mkVal [2]%N [] 3 0 false; mkVal [3]%N [] 5 0 false].
Theorem c16_roundtrip_proposer_refuted :
  exists vs, match new_valset ex3 with Ok v => v = vs | _ => False end /\
    match proposer vs, proposer (roundtrip vs) with
    | Ok (Some a, _), Ok (Some b, _) => a <> b
    | _, _ => False
    end.
Proof.
  eexists. split; [vm_compute; reflexivity|]. vm_compute. discriminate.
Qed.
Print Assumptions c16_roundtrip_proposer_refuted.

Definition props_of (r : res (list (option bytes) * valset)) : list (option bytes) :=
  match r with Ok (tr, _) => tr | _ => [] end.
Theorem c16_fair_after_change_refuted :
  exists vs0 vs1,
    new_valset [mkVal [1]%N [] 1 0 false; mkVal [2]%N [] 1 0 false; mkVal [3]%N [] 1 0 false; mkVal [4]%N [] 1 0 false] = Ok vs0 /\
    remove vs0 [4]%N = (vs1, true) /\
    (* total power is now 3, yet validator 2 is named twice (and validator 1 never) in the next three selections *)
    length (filter (fun o => match o with Some b => bytes_eqb [2]%N b | None => false end) (props_of (mrun vs1 3))) = 2%nat.
Proof.
  eexists. eexists. split; [vm_compute; reflexivity|]. split; [vm_compute; reflexivity|]. vm_compute. reflexivity.
Qed.
Print Assumptions c16_fair_after_change_refuted.

(* non-vacuity: a concrete fresh set meets the hypotheses of (3) *)
Example c16_nonvacuous :
  let ps := [1; 3; 5] in let addrs := [[1]; [2]; [3]]%N in
  at_step ps addrs 0 (mkVSet ex3 None 0) /\ (forall i, 0 <= nth i ps 0) /\ 0 < sumZ ps /\
  props_of (mrun (mkVSet ex3 None 0) 9) =
    map Some [[3]; [2]; [3]; [1]; [3]; [2]; [3]; [2]; [3]]%N.
Proof.
  split; [repeat split; left; reflexivity|]. split.
  - intros [|[|[|[|i]]]]; simpl; lia.
  - split; [reflexivity|]. vm_compute. reflexivity.
Qed.
