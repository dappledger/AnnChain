(* C07  WAL replay restores the in-progress height after a crash.
   Only property theorems (closed by [exact]) and assumption reports.
   Model: a restart is [init_node] from the durable parts (state's validator set with the proposer
   that State persistence keeps, the last commit rebuilt from the stored commit, the signer file)
   followed by [run] over the intact records of the log (Corr/NodeCorr.v [step_entry], [keep]);
   the "consensus" engine crashes real nodes after any input, with or without a torn last record,
   and compares the replayed ConsensusState with the model after every restart.
   What is proved here holds for every log content: replay is a run of the same total function, so
   (1) it cannot panic where the live run did not and it re-establishes the lock invariant, (2) it
   cannot sign anything that contradicts an earlier signature, (3) it composes, and (4) replaying
   an intact log rebuilds exactly the state before the crash - round, step, proposal, parts,
   every vote set, the lock - whatever the signer file holds by then (the state machine's state
   is independent of the signer record: Proofs/SignerIndep.v). *)
From Coq Require Import List NArith ZArith Bool.
From AnnVerif Require Import Base.Res Model.Node Proofs.NodeProofs Proofs.NodeSteps Proofs.SignerIndep Proofs.SignerDom.
Import ListNotations.
Open Scope Z_scope.

(* (1) whatever records survive, the replayed state satisfies the lock invariant: a lock that
   replay re-establishes is backed by +2/3 prevotes in the replayed vote sets *)
Theorem c07_replay_invariant :
  forall c h vs lc me s records n0 n, init_node h vs lc me s = Ok n0 -> run c records n0 = Ok n -> inv n.
Proof. exact reachable_lock_discipline. Qed.
Print Assumptions c07_replay_invariant.

(* (2) with the signer file as the crash left it, every vote the node signs during or after replay
   is either for a later height/round/step than anything signed before or byte-for-byte the vote
   signed before for that height/round/step; the signer never moves back *)
Theorem c07_no_contradicting_signature :
  forall t b n n' o, sign_add_vote t b n = Ok (n', o) ->
  let st := if N.eqb t 1 then 2 else 3 in
  hrs_le (sg_h (sg n)) (sg_r (sg n)) (sg_s (sg n)) (sg_h (sg n')) (sg_r (sg n')) (sg_s (sg n')) /\
  (forall x, In x o -> x = OVote t (round n) b /\
     (hrs_lt (sg_h (sg n)) (sg_r (sg n)) (sg_s (sg n)) (height n) (round n) st = true \/
      (sg_h (sg n) = height n /\ sg_r (sg n) = round n /\ sg_s (sg n) = st /\ exists w, sg_what (sg n) = Some w /\ what_eqb (t, b) w = true))).
Proof. exact sign_add_vote_signer. Qed.
Print Assumptions c07_no_contradicting_signature.

(* (3) replaying a prefix and then the rest is replaying the whole log: a crash during replay,
   followed by another replay, reaches what one replay reaches *)
Theorem c07_replay_composes :
  forall c a b n, run c (a ++ b) n = match run c a n with Ok n1 => run c b n1 | Err e => Err e | Panic w => Panic w end.
Proof. exact run_app. Qed.
Print Assumptions c07_replay_composes.

(* (4) the node started a height from its durable parts with signer file s0 and handled the logged
   inputs [ins], reaching n.  Restarted from the same durable parts with the signer file as the
   crash left it (s1), replaying the same log reaches n again in every field but the signer
   record - for every input sequence and every pair of signer states *)
Theorem c07_replay_restores :
  forall c h vs lc me s0 s1 ins n0 n,
  init_node h vs lc me s0 = Ok n0 -> run c ins n0 = Ok n ->
  exists n0' n' s', init_node h vs lc me s1 = Ok n0' /\ run c ins n0' = Ok n' /\ n' = set_sg n s'.
Proof. exact replay_restores. Qed.
Print Assumptions c07_replay_restores.

(* (4b) and with the signer file exactly as the crash left it - the signer record of the state
   reached - the replay ends in exactly that state, signer record included: nothing is signed afresh
   while replaying one's own intact log (a signer record at or beyond everything the run signed is
   inert, function by function: Proofs/SignerDom.v) *)
Theorem c07_replay_is_identity :
  forall c, c_skip_commit c = false ->
  forall h vs lc me s0 ins n0 n, init_node h vs lc me s0 = Ok n0 -> run c ins n0 = Ok n ->
  exists n0', init_node h vs lc me (sg n) = Ok n0' /\ run c ins n0' = Ok n.
Proof. exact restart_is_identity. Qed.
Print Assumptions c07_replay_is_identity.
Theorem c07_dominating_signer_is_inert :
  forall c, c_skip_commit c = false ->
  forall ins n n' s, run c ins n = Ok n' -> sg_le (sg n') s -> run c ins (set_sg n s) = Ok (set_sg n' s).
Proof. exact replay_inert. Qed.
Print Assumptions c07_dominating_signer_is_inert.

(* and one input at a time: the same path, the same failure, the same state up to the signer *)
Theorem c07_step_is_signer_independent : forall c i, obl (handle c i).
Proof. exact obl_handle. Qed.
Print Assumptions c07_step_is_signer_independent.
