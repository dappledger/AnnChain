(* C04  Locking discipline: votes follow the proof-of-lock rules.
   Only property theorems (closed by [exact]), assumption reports and examples.
   Model: Model/Node.v (gemmill/consensus/pbft/state.go, height_vote_set.go) on Model/VoteSet.v and
   Model/ValSet.v; the theorems quantify over all node states (or all states reachable from the
   start of a height) and all inputs: proposals, parts, votes for any round or height, forged and
   conflicting votes, timeouts - and over all configurations, except (8) and (9), which are for the
   configuration without skip-commit ((8) also for timeouts of rounds the node has reached). *)
From Coq Require Import List NArith ZArith Bool.
From AnnVerif Require Import Base.Res Base.Bytes Model.VoteSet Model.ValSet Model.Node Proofs.PowerSum Proofs.NodeProofs Proofs.NodeSteps
  Proofs.NodeBacked Proofs.Emit Proofs.SgWalk.
Import ListNotations.
Open Scope Z_scope.

(* (1) the prevote rule: whatever state the node is in, when it prevotes while locked it prevotes
   the locked block; unlocked, the valid complete proposal block or nil.  ([do_prevote] is the
   only function of the model that signs a prevote.) *)
Theorem c04_prevote_rule :
  forall n n' o x, do_prevote n = Ok (n', o) -> In x o ->
  exists b, x = OVote 1 (round n) b /\
    match lblock n with
    | Some B => b = blk_bid B
    | None => b = nil_bid \/ exists pb, pblock n = Some pb /\ bk_valid pb = true /\ b = pparts_bid n pb
    end.
Proof. exact prevote_rule. Qed.
Print Assumptions c04_prevote_rule.

(* (2) the precommit rule: a precommit for a block is signed only when the node's own prevote set
   of that round holds +2/3 for exactly that block id, and the node is then locked on it in that
   round.  ([enter_precommit] is the only function that signs a precommit.) *)
Theorem c04_precommit_rule :
  forall h r n n' o t r' b, enter_precommit h r n = Ok (n', o) -> In (OVote t r' b) o ->
  t = 2%N /\ r' = round n /\
  (b_hash b <> [] -> polka_at (votes n) r b /\ exists B, lblock n' = Some B /\ bk_hash B = b_hash b /\ lround n' = r).
Proof. exact precommit_rule. Qed.
Print Assumptions c04_precommit_rule.

(* (3) the commit rule: a commit happens only on +2/3 precommits for the block in one single
   round, with the complete, valid block at hand *)
Theorem c04_commit_rule :
  forall c h n n' o hc hash, finalize_commit c h n = Ok (n', o) -> In (OCommit hc hash) o ->
  hc = height n /\ exists b pb, commit_at (votes n) (commit_round n) b /\ b_hash b = hash /\
     pblock n = Some pb /\ bk_hash pb = hash /\ bk_valid pb = true /\ has_header (pparts n) (b_total b) (b_phash b) = true
     /\ height n' = height n + 1.
Proof. exact commit_rule. Qed.
Print Assumptions c04_commit_rule.

(* (4) the lock invariant holds in every state reachable from the start of a height: a locked
   node holds +2/3 prevotes for its locked block in its lock round *)
Theorem c04_lock_invariant :
  forall c h vs lc me s ins n0 n, init_node h vs lc me s = Ok n0 -> run c ins n0 = Ok n -> inv n.
Proof. exact reachable_lock_discipline. Qed.
Print Assumptions c04_lock_invariant.

(* (5) the lock is kept until a later polka for something else: over any sequence of inputs that
   stays within the height, a lock held at the start is still held on the same block (lock round
   not lower), or the node's vote sets hold +2/3 prevotes for something else (nil included) in a
   round after the lock round and not after the current round *)
Theorem c04_lock_kept_or_released :
  forall c ins n n' B, inv n -> run c ins n = Ok n' -> height n' = height n -> lblock n = Some B ->
  (exists B', lblock n' = Some B' /\ bk_hash B' = bk_hash B /\ lround n <= lround n') \/
  (exists r x, lround n < r <= round n' /\ polka_at (votes n') r x /\ hashes_to (Some B) (b_hash x) = false).
Proof. exact lock_kept_or_released. Qed.
Print Assumptions c04_lock_kept_or_released.

(* (6) one step: the invariant is preserved, heights and rounds never go back, majorities seen
   never disappear, and the lock relation of (5) holds across the step *)
Theorem c04_step : forall c i n n' o, handle c i n = Ok (n', o) -> G n n'.
Proof. exact (fun c i => sat_handle c i). Qed.
Print Assumptions c04_step.

(* non-vacuity: a four-validator height in which the node locks, and then releases the lock on a
   nil polka of the next round *)
Definition ex_a (k : N) : bytes := [k].
Definition ex_vals : res valset :=
  new_valset [mkVal (ex_a 1) (ex_a 1) 1 0 false; mkVal (ex_a 2) (ex_a 2) 1 0 false;
              mkVal (ex_a 3) (ex_a 3) 1 0 false; mkVal (ex_a 4) (ex_a 4) 1 0 false].
Definition ex_n0 : res node :=
  match ex_vals with Ok vs => init_node 1 vs None (Some (ex_a 1)) (mkSg 0 0 0 None) | _ => Panic 0 end.
Definition ex_B : blk := mkBlk [7%N] 1 [8%N] true.
Definition ex_vote (i : Z) (who : N) (t : N) (r : Z) (b : block_id) : vote :=
  mkVote (ex_a who) i 1 r t b [who; Z.to_N r; t] true.
Definition ex_lock_inputs : list input :=
  [ITimeout 1 0 1; IProposal (mkProp 1 0 (-1) 1 [8%N]) (ex_a 1) []; IPart 1 0 0 ex_B true [];
   IVote (ex_vote 0 1 1 0 (blk_bid ex_B)) []; IVote (ex_vote 1 2 1 0 (blk_bid ex_B)) (ex_a 2);
   IVote (ex_vote 2 3 1 0 (blk_bid ex_B)) (ex_a 3)].
Definition ex_release_inputs : list input :=
  [IVote (ex_vote 1 2 1 1 nil_bid) (ex_a 2); IVote (ex_vote 2 3 1 1 nil_bid) (ex_a 3); IVote (ex_vote 3 4 1 1 nil_bid) (ex_a 4)].
Definition ex_summary (r : res node) : option (Z * Z * Z * option bytes) :=
  match r with Ok n => Some (round n, step n, lround n, option_map bk_hash (lblock n)) | _ => None end.
Example c04_nonvacuous :
  ex_summary (match ex_n0 with Ok n => run (mkCfg false) ex_lock_inputs n | _ => Panic 0 end) = Some (0, 6, 0, Some [7%N]) /\
  ex_summary (match ex_n0 with Ok n => run (mkCfg false) (ex_lock_inputs ++ ex_release_inputs) n | _ => Panic 0 end) = Some (1, 6, 0, None).
Proof. vm_compute. split; reflexivity. Qed.

(* (7) the proposal rule: a proposer that holds a lock proposes the locked block (None: a freshly
   created block), in its current round, with the proof-of-lock round its own vote sets give *)
Theorem c04_proposal_rule :
  forall n n' o r polr lb, decide_proposal n = Ok (n', o) -> In (OProposal r polr lb) o ->
  r = round n /\ lb = lblock n /\ (exists b, pol_info (votes n) = Ok (polr, b)).
Proof. exact proposal_rule. Qed.
Print Assumptions c04_proposal_rule.

(* (8) the votes of one handled input, in terms of what was delivered to the node: a precommit for
   a block rests on delivered valid prevotes for it, at its round, from more than two thirds of the
   power; a prevote for something else than a block the node precommitted earlier rests on a
   delivered polka for something else in a round in between ([goods]); and the lock bookkeeping
   [J] is kept.  These are R2 and R3 on delivered votes, the form Proofs/System.v composes. *)
Theorem c04_votes_rest_on_deliveries :
  forall (VS : list validator), bounded VS -> forall (h0 : Z) (c : cfg) (i : input), c_skip_commit c = false ->
  forall off pcs n n' o, J VS h0 off pcs n -> height n = h0 -> input_ok i n -> handle c i n = Ok (n', o) ->
    J VS h0 (delivered_of i ++ off) (pcs_after o pcs) n' /\ goods VS h0 (delivered_of i ++ off) pcs o.
Proof. exact T_handle. Qed.
Print Assumptions c04_votes_rest_on_deliveries.

(* (9) the votes of one handled input, in terms of the signer: in order, each is either fresh -
   strictly after everything signed before - or the repetition of exactly the vote last signed *)
Theorem c04_signer_discipline :
  forall (c : cfg) (i : input), c_skip_commit c = false ->
  forall n n' o, handle c i n = Ok (n', o) -> sgrel (height n) (sg n) o (sg n').
Proof. exact SG_handle. Qed.
Print Assumptions c04_signer_discipline.
