(* Proofs about Model.TxPool, for C19.  The EVM application's pool (chain/app/evm/tx_pool.go,
   tx_sort.go): in every pool reached by submissions, administrative requests, Update calls,
   commits (new account nonces followed by updateToState) and flushes, each account's pending queue
   is a non-empty run of consecutive nonces starting at the account's state nonce ([pending_ok]),
   and the pending queues have ascending keys and stay within their limit ([sized]); hence what a
   reap offers ([reap_order]).  The default pool (gemmill/mempool/mempool.go): the transaction list
   stays duplicate-free and inside the duplicate cache ([mem_inv]), so a reap never repeats. *)
From Coq Require Import List NArith ZArith Lia Bool.
From AnnVerif Require Import Model.TxPool.
Import ListNotations.
Open Scope N_scope.

Lemma filter_length_le {A} (f : A -> bool) l : (length (filter f l) <= length l)%nat.
Proof. induction l as [|x l IH]; cbn; [lia|]. destruct (f x); cbn; lia. Qed.

Lemma fold_left_inv {A B} (P : A -> Prop) (f : A -> B -> A) l :
  (forall x b, P x -> P (f x b)) -> forall x, P x -> P (fold_left f l x).
Proof. intro Hf. induction l as [|b l IH]; intros x Hx; [exact Hx|]. apply IH, Hf, Hx. Qed.

Fixpoint is_run (n : N) (m : smap) : Prop :=
  match m with [] => True | t :: r => t_nonce t = n /\ is_run (n + 1) r end.

Definition all_ge (n : N) (m : smap) : Prop := forall t, In t m -> n <= t_nonce t.

Lemma is_run_ge n m : is_run n m -> all_ge n m.
Proof.
  revert n; induction m as [|t r IH]; intros n H u Hu; [contradiction|].
  destruct H as [H1 H2]. destruct Hu as [<-|Hu]; [lia|]. specialize (IH _ H2 u Hu). lia.
Qed.

Lemma is_run_app n a b : is_run n a -> is_run (n + N.of_nat (length a)) b -> is_run n (a ++ b).
Proof.
  revert n; induction a as [|t r IH]; intros n Ha Hb; [cbn in Hb; rewrite N.add_0_r in Hb; exact Hb|].
  destruct Ha as [H1 H2]. cbn [app is_run]. split; [exact H1|]. apply IH; [exact H2|].
  replace (n + 1 + N.of_nat (length r)) with (n + N.of_nat (length (t :: r))) by (cbn [length]; lia). exact Hb.
Qed.

Lemma is_run_nodup n m : is_run n m -> NoDup (map t_nonce m).
Proof.
  revert n; induction m as [|t r IH]; intros n H; cbn; [constructor|].
  destruct H as [H1 H2]. constructor; [|eapply IH; eauto].
  intro Hin. apply in_map_iff in Hin as (u & Hu & Hin). pose proof (is_run_ge _ _ H2 u Hin). lia.
Qed.

Lemma sm_get_run n m k : is_run n m -> (sm_get m k <> None <-> n <= k < n + N.of_nat (length m)).
Proof.
  revert n; induction m as [|t r IH]; intros n H; cbn [sm_get length].
  - split; [congruence|lia].
  - destruct H as [H1 H2]. destruct (N.eqb_spec (t_nonce t) k).
    + split; [intros _; lia|discriminate].
    + rewrite (IH _ H2). lia.
Qed.

Lemma sm_insert_run_end n m t : is_run n m -> t_nonce t = n + N.of_nat (length m) ->
  sm_insert m t = m ++ [t].
Proof.
  revert n; induction m as [|h r IH]; intros n H Ht; cbn [sm_insert length app]; [reflexivity|].
  destruct H as [H1 H2]. destruct (N.ltb_spec (t_nonce t) (t_nonce h)); [lia|].
  f_equal. apply (IH (n + 1)); [exact H2|]. cbn [length] in Ht. lia.
Qed.

Lemma sm_insert_length m t : length (sm_insert m t) = S (length m).
Proof.
  induction m as [|h m IH]; cbn [sm_insert length]; [reflexivity|].
  destruct (t_nonce t <? t_nonce h); cbn [length]; [reflexivity|]. rewrite IH. reflexivity.
Qed.

(* promoteExecutables adds the ready transactions to the pending queue one by one and ignores a
   failing Add *)
Definition add_or_keep (m : smap) (t : tx) : smap := match sm_add m t with Some m' => m' | None => m end.

Lemma add_or_keep_cases m t :
  (sm_get m (t_nonce t) <> None /\ add_or_keep m t = m) \/
  (sm_get m (t_nonce t) = None /\ add_or_keep m t = sm_insert m t).
Proof. unfold add_or_keep, sm_add. destruct (sm_get m (t_nonce t)); [left|right]; split; congruence. Qed.

Lemma fold_add_run ready : forall n pm s,
  is_run n pm -> is_run s ready -> n <= s <= n + N.of_nat (length pm) ->
  is_run n (fold_left add_or_keep ready pm) /\
  s + N.of_nat (length ready) <= n + N.of_nat (length (fold_left add_or_keep ready pm)).
Proof.
  induction ready as [|t r IH]; intros n pm s Hp Hr Hs; cbn [fold_left length]; [split; [exact Hp|lia]|].
  destruct Hr as [Ht Hr']. pose proof (sm_get_run n pm (t_nonce t) Hp) as Hin.
  destruct (add_or_keep_cases pm t) as [[Hg ->]|[Hg ->]].
  - (* nonce already there *)
    apply Hin in Hg. destruct (IH n pm (s + 1) Hp Hr' ltac:(lia)) as [I1 I2]. split; [exact I1|lia].
  - assert (Heq : t_nonce t = n + N.of_nat (length pm)).
    { destruct (N.lt_ge_cases (t_nonce t) (n + N.of_nat (length pm))) as [Hlt|Hge]; [|lia].
      destruct (proj2 Hin ltac:(lia) Hg). }
    rewrite (sm_insert_run_end n pm t Hp Heq).
    destruct (IH n (pm ++ [t]) (s + 1)) as [I1 I2].
    + apply is_run_app; [exact Hp|]. cbn. split; [lia|exact I].
    + exact Hr'.
    + rewrite app_length. cbn [length]. lia.
    + split; [exact I1|lia].
Qed.

Lemma fold_add_length ready : forall pm,
  (length (fold_left add_or_keep ready pm) <= length pm + length ready)%nat.
Proof.
  induction ready as [|t r IH]; intro pm; cbn [fold_left length]; [lia|].
  destruct (add_or_keep_cases pm t) as [[_ ->]|[_ ->]].
  - specialize (IH pm). lia.
  - specialize (IH (sm_insert pm t)). rewrite sm_insert_length in IH. lia.
Qed.

Lemma forward_run n m th : is_run n m -> is_run (N.max n th) (snd (sm_forward m th)).
Proof.
  unfold sm_forward. cbn [snd]. revert n; induction m as [|t r IH]; intros n H; [exact I|].
  destruct H as [H1 H2]. specialize (IH _ H2). cbn [filter].
  destruct (N.ltb_spec (t_nonce t) th) as [Hlt|Hge]; cbn [negb].
  - replace (N.max n th) with (N.max (n + 1) th) by lia. exact IH.
  - replace (N.max n th) with n by lia. replace (N.max (n + 1) th) with (n + 1) in IH by lia.
    split; [exact H1|exact IH].
Qed.

Lemma forward_ge m th : all_ge th (snd (sm_forward m th)).
Proof.
  unfold sm_forward, all_ge. cbn [snd]. intros t Ht. apply filter_In in Ht as [_ Ht].
  apply negb_true_iff in Ht. apply N.ltb_ge in Ht. exact Ht.
Qed.

Lemma sm_run_spec m : forall next count a b, sm_run m next count = (a, b) ->
  is_run next a /\ m = a ++ b /\ (length a <= count)%nat.
Proof.
  induction m as [|t r IH]; intros next count a b; destruct count as [|c]; cbn [sm_run];
    try (intro E; injection E as <- <-; repeat split; auto; cbn; lia).
  destruct (N.eqb_spec (t_nonce t) next) as [E1|E1].
  - destruct (sm_run r (next + 1) c) as [a' b'] eqn:Er. intro E; injection E as <- <-.
    destruct (IH _ _ _ _ Er) as (I1 & I2 & I3). repeat split; auto; [cbn; rewrite <- I2; reflexivity|cbn; lia].
  - intro E; injection E as <- <-. repeat split; auto. cbn. lia.
Qed.

Lemma sm_ready_spec m start count a b : sm_ready m start count = (a, b) ->
  m = a ++ b /\ (length a <= count)%nat /\
  (a = [] \/ exists s, s <= start /\ is_run s a /\ sm_min m = Some s).
Proof.
  unfold sm_ready. destruct m as [|t r]; [intro E; injection E as <- <-; repeat split; auto; cbn; lia|].
  destruct ((start <? t_nonce t) || Nat.eqb count 0) eqn:Ec.
  - intro E; injection E as <- <-. repeat split; auto. cbn. lia.
  - apply orb_false_iff in Ec as [Ec1 Ec2]. apply N.ltb_ge in Ec1. intro E.
    destruct (sm_run_spec _ _ _ _ _ E) as (I1 & I2 & I3). repeat split; auto.
    right. exists (t_nonce t). repeat split; auto.
Qed.

Lemma am_get_set_eq a k v : am_get (am_set a k v) k = Some v.
Proof.
  induction a as [|[k' v'] r IH]; cbn [am_set am_get]; [rewrite N.eqb_refl; reflexivity|].
  destruct (N.eqb_spec k' k); cbn [am_get]; [rewrite N.eqb_refl; reflexivity|].
  destruct (k <? k'); cbn [am_get]; [rewrite N.eqb_refl; reflexivity|].
  destruct (N.eqb_spec k' k); [contradiction|exact IH].
Qed.
Lemma am_get_set_neq a k v k2 : k <> k2 -> am_get (am_set a k v) k2 = am_get a k2.
Proof.
  intro Hne. induction a as [|[k' v'] r IH]; cbn [am_set am_get].
  - destruct (N.eqb_spec k k2); [contradiction|reflexivity].
  - destruct (N.eqb_spec k' k) as [->|E1]; cbn [am_get].
    + destruct (N.eqb_spec k k2); [contradiction|reflexivity].
    + destruct (k <? k'); cbn [am_get].
      * destruct (N.eqb_spec k k2); [contradiction|reflexivity].
      * destruct (N.eqb_spec k' k2); [reflexivity|exact IH].
Qed.
Lemma am_get_del_eq a k : am_get (am_del a k) k = None.
Proof.
  induction a as [|[k' v'] r IH]; cbn [am_del filter am_get fst]; [reflexivity|].
  destruct (N.eqb_spec k' k); cbn [negb]; [exact IH|]. cbn [am_get]. destruct (N.eqb_spec k' k); [contradiction|exact IH].
Qed.
Lemma am_get_del_neq a k k2 : k <> k2 -> am_get (am_del a k) k2 = am_get a k2.
Proof.
  intro Hne. induction a as [|[k' v'] r IH]; cbn [am_del filter am_get fst]; [reflexivity|].
  destruct (N.eqb_spec k' k) as [->|E]; cbn [negb].
  - destruct (N.eqb_spec k k2); [contradiction|exact IH].
  - cbn [am_get]. destruct (N.eqb_spec k' k2); [reflexivity|exact IH].
Qed.
Lemma am_get_in a k m : am_get a k = Some m -> In k (map fst a).
Proof.
  induction a as [|[k' v'] r IH]; cbn [am_get map fst]; [discriminate|].
  destruct (N.eqb_spec k' k); [intros _; left; assumption|intro H; right; apply IH; exact H].
Qed.

Fixpoint keys_sorted (a : amap) : Prop :=
  match a with
  | [] => True
  | (k, _) :: r => (forall k', In k' (map fst r) -> k < k') /\ keys_sorted r
  end.

Lemma am_get_none_sorted r k : keys_sorted r -> (forall k', In k' (map fst r) -> k < k') -> am_get r k = None.
Proof.
  induction r as [|[k' v'] r IH]; intros Hs Hlt; [reflexivity|]. cbn [am_get].
  assert (k < k') by (apply Hlt; left; reflexivity). destruct (N.eqb_spec k' k); [lia|].
  destruct Hs as [H1 H2]. apply IH; [exact H2|]. intros x Hx. specialize (H1 x Hx). lia.
Qed.

Lemma am_in_get a k m : keys_sorted a -> In (k, m) a -> am_get a k = Some m.
Proof.
  induction a as [|[k' v] r IH]; intros Hs Hin; [contradiction|]. destruct Hs as [H1 H2]. cbn [am_get].
  destruct Hin as [E|Hin]; [injection E as -> ->; rewrite N.eqb_refl; reflexivity|].
  destruct (N.eqb_spec k' k) as [->|E]; [|exact (IH H2 Hin)].
  assert (k < k); [|lia]. apply H1. apply in_map_iff. exists (k, m). auto.
Qed.

Lemma am_set_keys a k v : forall x, In x (map fst (am_set a k v)) -> x = k \/ In x (map fst a).
Proof.
  induction a as [|[k' v'] r IH]; intros x; cbn [am_set]; [cbn; intuition congruence|].
  destruct (N.eqb_spec k' k) as [->|E]; [cbn; intuition congruence|].
  destruct (k <? k'); [cbn; intuition congruence|]. cbn [map fst In]. intros [H|H]; [auto|]. destruct (IH x H); auto.
Qed.

Lemma am_set_sorted a k v : keys_sorted a -> keys_sorted (am_set a k v).
Proof.
  induction a as [|[k' v'] r IH]; intro Hs; cbn [am_set]; [cbn; split; [contradiction|exact I]|].
  destruct Hs as [H1 H2]. destruct (N.eqb_spec k' k) as [->|E]; [split; assumption|].
  destruct (N.ltb_spec k k').
  - split; [|split; assumption]. intros x [<-|Hx]; [assumption|]. specialize (H1 x Hx). lia.
  - split; [|apply IH; exact H2]. intros x Hx. destruct (am_set_keys r k v x Hx) as [->|Hx']; [lia|auto].
Qed.

Lemma am_del_sorted a k : keys_sorted a -> keys_sorted (am_del a k).
Proof.
  induction a as [|[k' v'] r IH]; intro Hs; cbn [am_del filter fst]; [exact I|].
  destruct Hs as [H1 H2]. destruct (negb (k' =? k)); [|apply IH; exact H2].
  split; [|apply IH; exact H2]. intros x Hx. apply H1.
  unfold am_del in Hx. apply in_map_iff in Hx as ([kx vx] & <- & Hin). apply filter_In in Hin as [Hin _]. apply in_map_iff. exists (kx, vx). auto.
Qed.

Definition len_at (a : amap) (k : N) : nat := match am_get a k with Some m => length m | None => O end.

Lemma am_count_set a k v : keys_sorted a ->
  (am_count (am_set a k v) + len_at a k = am_count a + length v)%nat.
Proof.
  unfold len_at. induction a as [|[k' v'] r IH]; intro Hs; cbn [am_set am_get am_count fold_right snd]; [lia|].
  destruct Hs as [H1 H2]. destruct (N.eqb_spec k' k) as [->|E].
  - cbn [am_count fold_right snd]. fold (am_count r). lia.
  - destruct (N.ltb_spec k k').
    + cbn [am_count fold_right snd]. fold (am_count r).
      rewrite (am_get_none_sorted r k H2); [lia|]. intros x Hx. specialize (H1 x Hx). lia.
    + cbn [am_count fold_right snd]. fold (am_count r) (am_count (am_set r k v)). specialize (IH H2). lia.
Qed.

Lemma am_count_del a k : keys_sorted a -> (am_count (am_del a k) + len_at a k = am_count a)%nat.
Proof.
  unfold len_at. induction a as [|[k' v'] r IH]; intro Hs; cbn [am_del filter fst am_get am_count fold_right snd]; [lia|].
  destruct Hs as [H1 H2]. destruct (N.eqb_spec k' k) as [->|E]; cbn [negb].
  - fold (am_del r k) (am_count r). 
    assert (Hn : am_get r k = None) by (apply am_get_none_sorted; assumption).
    specialize (IH H2). rewrite Hn in IH. fold (am_count (am_del r k)). lia.
  - cbn [am_count fold_right snd]. fold (am_del r k) (am_count r) (am_count (am_del r k)). specialize (IH H2). lia.
Qed.

Definition ok_at (ns : nonces) (p : pool) (a : N) : Prop :=
  match am_get (p_pending p) a with
  | None => True
  | Some m => m <> [] /\ is_run (nonce_of ns a) m
  end.
Definition pending_ok (ns : nonces) (p : pool) : Prop := forall a, ok_at ns p a.

Definition runs (p : pool) : Prop :=
  forall a m, am_get (p_pending p) a = Some m -> m <> [] /\ exists s, is_run s m.

Lemma pending_ok_runs ns p : pending_ok ns p -> runs p.
Proof. intros H a m Hm. specialize (H a). unfold ok_at in H. rewrite Hm in H. destruct H; eauto. Qed.

Definition sized (p : pool) : Prop :=
  keys_sorted (p_pending p) /\ keys_sorted (p_waiting p) /\ (am_count (p_pending p) <= p_plimit p)%nat.

(* q differs from p in nothing that [pending_ok] or [sized] looks at *)
Definition frame (p q : pool) : Prop :=
  p_pending q = p_pending p /\ p_plimit q = p_plimit p /\ (keys_sorted (p_waiting p) -> keys_sorted (p_waiting q)).

Lemma frame_refl p : frame p p.
Proof. split; [reflexivity|]. split; [reflexivity|auto]. Qed.

Lemma frame_trans p q r : frame p q -> frame q r -> frame p r.
Proof. intros (A1 & A2 & A3) (B1 & B2 & B3). split; [congruence|]. split; [congruence|auto]. Qed.

Lemma frame_ok ns p q : frame p q -> pending_ok ns p -> pending_ok ns q.
Proof. intros (E & _) H a. unfold ok_at. rewrite E. apply H. Qed.

Lemma frame_sized p q : frame p q -> sized p -> sized q.
Proof. intros (E1 & E2 & Hw) (S1 & S2 & S3). unfold sized. rewrite E1, E2. auto. Qed.

Lemma add_waiting_frame p t : frame p (fst (add_waiting p t)).
Proof.
  assert (Hset : forall m', frame p (mkPool (p_pending p) (am_set (p_waiting p) (t_from t) m') (p_all p) (p_ext p) (p_plimit p) (p_wlimit p))).
  { intro m'. split; [reflexivity|]. split; [reflexivity|apply am_set_sorted]. }
  unfold add_waiting. destruct (Nat.leb (p_wlimit p) (am_count (p_waiting p))).
  - destruct (am_get (p_waiting p) (t_from t)) as [m|]; [|apply frame_refl]. destruct (sm_try_replace m t). apply Hset.
  - destruct (sm_add _ t); [apply Hset|apply frame_refl].
Qed.

(* the transactions of a demoted queue go back to waiting (or are dropped) *)
Lemma requeue_frame l q :
  frame q (fold_left (fun q t => let '(q', c) := add_waiting q t in
                          if c =? 0 then q'
                          else mkPool (p_pending q') (p_waiting q') (all_del (p_all q') [t_id t]) (p_ext q') (p_plimit q') (p_wlimit q')) l q).
Proof.
  apply (fold_left_inv (frame q)); [|apply frame_refl]. intros x t Hx. apply (frame_trans _ _ _ Hx).
  pose proof (add_waiting_frame x t) as Hf. destruct (add_waiting x t) as [q' c]. destruct (c =? 0); exact Hf.
Qed.

Lemma promote_one_spec ns p a :
  p_plimit (promote_one ns p a) = p_plimit p /\
  (keys_sorted (p_waiting p) -> keys_sorted (p_waiting (promote_one ns p a))) /\
  (p_pending (promote_one ns p a) = p_pending p \/
   exists m', p_pending (promote_one ns p a) = am_set (p_pending p) a m' /\
     (ok_at ns p a -> m' <> [] /\ is_run (nonce_of ns a) m') /\
     (length m' + am_count (p_pending p) <= len_at (p_pending p) a + p_plimit p)%nat).
Proof.
  unfold promote_one.
  destruct (Nat.leb_spec (p_plimit p) (am_count (p_pending p))) as [Hfull|Hroom]; [auto|].
  destruct (am_get (p_waiting p) a) as [w|]; [|auto].
  pose proof (forward_ge w (nonce_of ns a)) as Hge.
  destruct (sm_forward w (nonce_of ns a)) as [old w1]. cbn [snd] in Hge.
  destruct (sm_ready w1 (nonce_of ns a) (p_plimit p - am_count (p_pending p))) as [ready w2] eqn:Er.
  destruct (sm_ready_spec _ _ _ _ _ Er) as (_ & Hlen & Hrun).
  assert (Hw : keys_sorted (p_waiting p) ->
               keys_sorted (match w2 with [] => am_del (p_waiting p) a | _ :: _ => am_set (p_waiting p) a w2 end)).
  { intro S2. destruct w2; [apply am_del_sorted|apply am_set_sorted]; exact S2. }
  destruct ready as [|t r]; cbn [p_pending p_waiting p_plimit]; (split; [reflexivity|]); (split; [exact Hw|]); [left; reflexivity|right].
  set (pm0 := match am_get (p_pending p) a with Some m => m | None => [] end).
  exists (fold_left add_or_keep (t :: r) pm0). split; [reflexivity|]. split.
  - (* ReadyN starts at the smallest waiting nonce, which Forward left at or above the state nonce *)
    destruct Hrun as [Hnil|(s & Hs & Hrun & Hmin)]; [discriminate|].
    assert (Hs2 : s = nonce_of ns a).
    { destruct w1 as [|h w1']; [discriminate|]. cbn in Hmin. injection Hmin as <-. specialize (Hge h (or_introl eq_refl)). lia. }
    subst s. intro Hok.
    assert (Hrun0 : is_run (nonce_of ns a) pm0).
    { unfold ok_at in Hok. subst pm0. destruct (am_get (p_pending p) a); [apply Hok|exact I]. }
    destruct (fold_add_run (t :: r) _ pm0 _ Hrun0 Hrun ltac:(lia)) as [I1 I2].
    split; [|exact I1]. intro E. rewrite E in I2. cbn [length] in I2. lia.
  - pose proof (fold_add_length (t :: r) pm0) as Hfl.
    assert (Hl0 : len_at (p_pending p) a = length pm0) by (unfold len_at, pm0; destruct (am_get (p_pending p) a); reflexivity).
    lia.
Qed.

Lemma promote_one_ok ns p a : pending_ok ns p -> pending_ok ns (promote_one ns p a).
Proof.
  intros Hok b. destruct (promote_one_spec ns p a) as (_ & _ & [E|(m' & E & Hm & _)]); unfold ok_at; rewrite E; [apply Hok|].
  destruct (N.eq_dec a b) as [<-|Hne]; [rewrite am_get_set_eq; exact (Hm (Hok a))|rewrite am_get_set_neq by exact Hne; apply Hok].
Qed.

Lemma promote_one_sized ns p a : sized p -> sized (promote_one ns p a).
Proof.
  intros (S1 & S2 & S3). destruct (promote_one_spec ns p a) as (El & Hw & [E|(m' & E & _ & Hlen)]); unfold sized; rewrite El, E; [auto|].
  split; [apply am_set_sorted; exact S1|]. split; [auto|]. pose proof (am_count_set (p_pending p) a m' S1). lia.
Qed.

Lemma demote_one_spec ns p a :
  p_plimit (demote_one ns p a) = p_plimit p /\
  (keys_sorted (p_waiting p) -> keys_sorted (p_waiting (demote_one ns p a))) /\
  match am_get (p_pending p) a with
  | None => p_pending (demote_one ns p a) = p_pending p
  | Some m =>
    p_pending (demote_one ns p a) = am_del (p_pending p) a \/
    (p_pending (demote_one ns p a) = am_set (p_pending p) a (snd (sm_forward m (nonce_of ns a))) /\
     sm_get (snd (sm_forward m (nonce_of ns a))) (nonce_of ns a) <> None)
  end.
Proof.
  unfold demote_one. destruct (am_get (p_pending p) a) as [m|]; [|auto].
  destruct (sm_forward m (nonce_of ns a)) as [old m1]. cbn [snd].
  destruct m1 as [|h m1']; [cbn; auto|].
  destruct (sm_get (h :: m1') (nonce_of ns a)) eqn:Eg.
  - cbn [p_pending p_waiting p_plimit]. split; [reflexivity|]. split; [auto|]. right. split; [reflexivity|discriminate].
  - destruct (requeue_frame (h :: m1') (mkPool (am_del (p_pending p) a) (p_waiting p) (all_del (p_all p) (map t_id old)) (p_ext p) (p_plimit p) (p_wlimit p))) as (E1 & E2 & E3).
    rewrite E1, E2. split; [reflexivity|]. split; [exact E3|left; reflexivity].
Qed.

Lemma demote_one_runs ns p a : runs p ->
  runs (demote_one ns p a) /\ ok_at ns (demote_one ns p a) a /\
  (forall b, b <> a -> am_get (p_pending (demote_one ns p a)) b = am_get (p_pending p) b).
Proof.
  intro Hr. destruct (demote_one_spec ns p a) as (_ & _ & H). unfold runs, ok_at.
  destruct (am_get (p_pending p) a) as [m|] eqn:Em; [|rewrite H, Em; auto].
  destruct H as [E|[E Hg]]; rewrite E.
  - rewrite am_get_del_eq. split; [|split; [exact I|]].
    + intros b mb. destruct (N.eq_dec a b) as [<-|Hnb]; [rewrite am_get_del_eq; discriminate|].
      rewrite am_get_del_neq by exact Hnb. apply Hr.
    + intros b Hb. apply am_get_del_neq. congruence.
  - (* the kept suffix is a run from max s n and contains n, so it starts at n *)
    destruct (Hr a m Em) as [_ (s & Hrun)].
    assert (Hm1 : snd (sm_forward m (nonce_of ns a)) <> [] /\ is_run (nonce_of ns a) (snd (sm_forward m (nonce_of ns a)))).
    { pose proof (forward_run s m (nonce_of ns a) Hrun) as Hrun1.
      apply (sm_get_run _ _ _ Hrun1) in Hg as Hin. replace (N.max s (nonce_of ns a)) with (nonce_of ns a) in Hrun1 by lia.
      split; [|exact Hrun1]. intro E0. rewrite E0 in Hg. destruct (Hg eq_refl). }
    rewrite am_get_set_eq. split; [|split; [exact Hm1|]].
    + intros b mb. destruct (N.eq_dec a b) as [<-|Hnb].
      * rewrite am_get_set_eq. intro Hb. injection Hb as <-. split; [apply Hm1|eexists; apply Hm1].
      * rewrite am_get_set_neq by exact Hnb. apply Hr.
    + intros b Hb. apply am_get_set_neq. congruence.
Qed.

Lemma demote_one_sized ns p a : sized p -> sized (demote_one ns p a).
Proof.
  intros (S1 & S2 & S3). destruct (demote_one_spec ns p a) as (El & Hw & H). unfold sized. rewrite El.
  pose proof (am_count_del (p_pending p) a S1) as Hdel. unfold len_at in Hdel.
  destruct (am_get (p_pending p) a) as [m|] eqn:Em; [|rewrite H; auto].
  destruct H as [E|[E _]]; rewrite E.
  - split; [apply am_del_sorted; exact S1|]. split; [auto|lia].
  - split; [apply am_set_sorted; exact S1|]. split; [auto|].
    pose proof (am_count_set (p_pending p) a (snd (sm_forward m (nonce_of ns a))) S1) as Hset. unfold len_at in Hset. rewrite Em in Hset.
    pose proof (filter_length_le (fun t => negb (t_nonce t <? nonce_of ns a)) m). unfold sm_forward in *. cbn [snd] in *. lia.
Qed.

Lemma demote_all ns keys : forall p, runs p ->
  let p' := fold_left (demote_one ns) keys p in
  runs p' /\ (forall a, In a keys -> ok_at ns p' a) /\
  (forall a, ~ In a keys -> am_get (p_pending p') a = am_get (p_pending p) a).
Proof.
  induction keys as [|k t IH]; intros p Hr; cbn [fold_left]; [split; [exact Hr|split; [contradiction|auto]]|].
  destruct (demote_one_runs ns p k Hr) as (D1 & D2 & D3).
  destruct (IH (demote_one ns p k) D1) as (I1 & I2 & I3).
  split; [exact I1|]. split.
  - intros a [<-|Ha].
    + destruct (in_dec N.eq_dec k t) as [Hin|Hnin]; [apply I2; exact Hin|].
      unfold ok_at. rewrite (I3 k Hnin). exact D2.
    + apply I2. exact Ha.
  - intros a Ha. rewrite I3 by (intro; apply Ha; right; assumption). apply D3. intro E. apply Ha. left. congruence.
Qed.

Theorem update_to_state_ok ns p : runs p -> pending_ok ns (update_to_state ns p).
Proof.
  intro Hr. unfold update_to_state, promote. apply fold_left_inv; [intros; apply promote_one_ok; assumption|].
  destruct (demote_all ns (map fst (p_pending p)) p Hr) as (D1 & D2 & D3).
  intro a. destruct (in_dec N.eq_dec a (map fst (p_pending p))) as [Hin|Hnin]; [apply D2; exact Hin|].
  unfold ok_at. rewrite (D3 a Hnin).
  destruct (am_get (p_pending p) a) as [m|] eqn:Em; [|exact I].
  exfalso. apply Hnin. eapply am_get_in; eauto.
Qed.

Theorem update_to_state_sized ns p : sized p -> sized (update_to_state ns p).
Proof.
  intro Hs. unfold update_to_state, promote.
  apply fold_left_inv; [intros; apply promote_one_sized; assumption|].
  apply fold_left_inv; [intros; apply demote_one_sized; assumption|exact Hs].
Qed.

Lemma receive_spec ns p t : exists q, frame p q /\
  (fst (receive ns p t) = q \/ fst (receive ns p t) = promote_one ns q (t_from t)).
Proof.
  unfold receive.
  destruct (existsb (N.eqb (t_id t)) (p_all p)); [exists p; split; [apply frame_refl|auto]|].
  destruct (t_nonce t <? nonce_of ns (t_from t)); [exists p; split; [apply frame_refl|auto]|].
  pose proof (add_waiting_frame p t) as Hf. destruct (add_waiting p t) as [p1 c]. cbn [fst] in Hf.
  destruct (c =? 1); [exists p1; auto|]. destruct (c =? 2); [exists p1; auto|].
  exists (mkPool (p_pending p1) (p_waiting p1) (p_all p1 ++ [t_id t]) (p_ext p1) (p_plimit p1) (p_wlimit p1)).
  split; [exact Hf|]. destruct (nonce_of ns (t_from t) =? t_nonce t); auto.
Qed.

Theorem receive_ok ns p t : pending_ok ns p -> pending_ok ns (fst (receive ns p t)).
Proof.
  intro Hok. destruct (receive_spec ns p t) as (q & Hf & [-> | ->]); [|apply promote_one_ok]; exact (frame_ok ns p q Hf Hok).
Qed.

Theorem receive_sized ns p t : sized p -> sized (fst (receive ns p t)).
Proof.
  intro Hs. destruct (receive_spec ns p t) as (q & Hf & [-> | ->]); [|apply promote_one_sized]; exact (frame_sized p q Hf Hs).
Qed.

Theorem duplicate_rejected ns p t : existsb (N.eqb (t_id t)) (p_all p) = true -> receive ns p t = (p, 1).
Proof. intro H. unfold receive. rewrite H. reflexivity. Qed.

Theorem reap_order ns p a m : pending_ok ns p -> In (a, m) (snd (reap_all p)) -> keys_sorted (p_pending p) ->
  m <> [] /\ is_run (nonce_of ns a) m /\ NoDup (map t_nonce m).
Proof.
  intros Hok Hin Hs. specialize (Hok a). unfold ok_at in Hok. rewrite (am_in_get _ _ _ Hs Hin) in Hok.
  destruct Hok as [H1 H2]. split; [exact H1|]. split; [exact H2|]. eapply is_run_nodup; eauto.
Qed.

Inductive pop :=
| PSubmit (t : tx) | PAdmin (id : N) | PUpdate (ids : list N) | PCommit (ns' : nonces) | PFlush.

(* the nonces in force: they change only at a commit, which is followed by updateToState *)
Definition pstep (st : nonces * pool) (o : pop) : nonces * pool :=
  let '(ns, p) := st in
  match o with
  | PSubmit t => (ns, fst (receive ns p t))
  | PAdmin id => (ns, fst (receive_admin p id))
  | PUpdate ids => (ns, update p ids)
  | PCommit ns' => (ns', update_to_state ns' p)
  | PFlush => (ns, flush p)
  end.
Definition prun (pl wl : nat) (ns0 : nonces) (ops : list pop) : nonces * pool := fold_left pstep ops (ns0, new_pool pl wl).

Lemma empty_ok ns p : p_pending p = [] -> p_waiting p = [] -> pending_ok ns p /\ sized p.
Proof.
  intros E1 E2. split; [intro a; unfold ok_at; rewrite E1; exact I|].
  unfold sized. rewrite E1, E2. cbn. auto using Nat.le_0_l.
Qed.

Lemma pstep_inv ns p o : pending_ok ns p /\ sized p ->
  pending_ok (fst (pstep (ns, p) o)) (snd (pstep (ns, p) o)) /\ sized (snd (pstep (ns, p) o)).
Proof.
  intros [H1 H2]. destruct o; cbn [pstep fst snd].
  - split; [apply receive_ok; exact H1|apply receive_sized; exact H2].
  - unfold receive_admin. destruct (existsb _ _); split; assumption.
  - split; assumption.
  - split; [apply update_to_state_ok; eapply pending_ok_runs; eauto|apply update_to_state_sized; exact H2].
  - apply empty_ok; reflexivity.
Qed.

Theorem reachable_pool pl wl ns0 ops :
  let '(ns, p) := prun pl wl ns0 ops in pending_ok ns p /\ sized p.
Proof.
  assert (H : pending_ok (fst (prun pl wl ns0 ops)) (snd (prun pl wl ns0 ops)) /\ sized (snd (prun pl wl ns0 ops))).
  { apply (fold_left_inv (fun st => pending_ok (fst st) (snd st) /\ sized (snd st))); [|apply empty_ok; reflexivity].
    intros [ns p] o. apply pstep_inv. }
  destruct (prun pl wl ns0 ops). exact H.
Qed.

Definition mem_inv (m : mempool) : Prop := NoDup (m_txs m) /\ (forall x, In x (m_txs m) -> In x (m_cache m)).

Lemma existsb_in x l : existsb (N.eqb x) l = true <-> In x l.
Proof. rewrite existsb_exists. split; [intros (y & Hy & E); apply N.eqb_eq in E; subst; exact Hy|intro H; exists x; split; [exact H|apply N.eqb_refl]]. Qed.

Lemma all_del_in l ids x : In x (all_del l ids) <-> In x l /\ ~ In x ids.
Proof.
  unfold all_del. rewrite filter_In, negb_true_iff, <- not_true_iff_false, existsb_in. reflexivity.
Qed.

Lemma NoDup_snoc {A} (l : list A) x : NoDup l -> ~ In x l -> NoDup (l ++ [x]).
Proof.
  intros Hn Hx. apply NoDup_rev in Hn. rewrite <- (rev_involutive (l ++ [x])), rev_app_distr. apply NoDup_rev.
  constructor; [rewrite <- in_rev; exact Hx|exact Hn].
Qed.

Lemma NoDup_prefix {A} (a b : list A) : NoDup (a ++ b) -> NoDup a.
Proof.
  induction a as [|x a IH]; cbn; intro H; [constructor|]. apply NoDup_cons_iff in H as [Hx Hn].
  constructor; [|exact (IH Hn)]. intro Hin. apply Hx, in_or_app. left. exact Hin.
Qed.

Lemma mem_receive_inv m id : mem_inv m -> mem_inv (fst (mem_receive m id)).
Proof.
  intros [H1 H2]. unfold mem_receive. destruct (existsb (N.eqb id) (m_cache m)) eqn:E; [split; assumption|].
  cbn [fst m_txs m_cache]. split.
  - apply NoDup_snoc; [exact H1|]. intro Hx. apply H2 in Hx. apply existsb_in in Hx. congruence.
  - intros x Hx. apply in_app_or in Hx as [Hx|Hx]; apply in_or_app; [left; auto|right; exact Hx].
Qed.

Lemma mem_update_inv m ids : mem_inv m -> mem_inv (mem_update m ids).
Proof.
  intros [H1 H2]. unfold mem_update. cbn [m_txs m_cache]. split.
  - unfold all_del. apply NoDup_filter. exact H1.
  - intros x Hx. apply all_del_in in Hx as [Hx Hn]. apply all_del_in. split; auto.
Qed.

Theorem mem_reap_nodup m n : mem_inv m -> NoDup (mem_reap m n).
Proof.
  intros [H1 _]. unfold mem_reap. destruct (n =? 0)%Z; [constructor|]. destruct (n <? 0)%Z; [exact H1|].
  rewrite <- (firstn_skipn (Z.to_nat n) (m_txs m)) in H1. exact (NoDup_prefix _ _ H1).
Qed.
Theorem mem_committed_removed m ids x : In x ids -> ~ In x (m_txs (mem_update m ids)).
Proof. intros Hi Hx. cbn in Hx. apply all_del_in in Hx as [_ Hn]. contradiction. Qed.
