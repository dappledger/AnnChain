(* Proofs about Model.SecretConn (gemmill/p2p/secret_connection.go), for C20: over an honest
   wire the stream is delivered exactly, for any write and read sizes; when the wire carries,
   behind some of the sender's frames, anything but the frame that follows them (another genuine
   frame, a garbled one, a cut inside a frame), no clean end of stream is reported and only a
   prefix of the genuine stream is delivered. *)
From Coq Require Import List NArith Lia Bool Arith.
From AnnVerif Require Import Base.Bytes Model.SecretConn.
Import ListNotations.

(* [data_max] is never unfolded below (a unary 1024 is slow to check): that it is positive is
   all the proofs need *)
Lemma data_max_pos : (0 < data_max)%nat.
Proof. apply Nat.lt_0_succ. Qed.

Lemma parse_mk_plain c : (length c <= data_max)%nat -> parse_plain (mk_plain c) = Some c.
Proof.
  intro H. unfold mk_plain, parse_plain. cbn [app].
  rewrite N.mul_comm, <- N.div_mod, Nat2N.id by discriminate.
  replace (Nat.ltb data_max (length c)) with false by (symmetry; apply Nat.ltb_ge; exact H).
  rewrite firstn_app, Nat.sub_diag, firstn_all. cbn [firstn]. rewrite app_nil_r. reflexivity.
Qed.

Definition ok_chunks (cs : list bytes) : Prop := Forall (fun c => (length c <= data_max)%nat) cs.

Lemma chunks_max_f_spec fuel : forall data, (length data <= fuel)%nat ->
  concat (chunks_max_f fuel data) = data /\ ok_chunks (chunks_max_f fuel data).
Proof.
  pose proof data_max_pos as Hpos.
  induction fuel as [|f IH]; intros data Hl.
  - destruct data; [split; [reflexivity|constructor]|simpl in Hl; lia].
  - destruct data as [|x d]; [split; [reflexivity|constructor]|].
    cbn [chunks_max_f]. destruct (IH (skipn data_max (x :: d))) as [I1 I2].
    { rewrite skipn_length. cbn [length] in *. lia. }
    split.
    + cbn [concat]. rewrite I1. apply firstn_skipn.
    + constructor; [apply firstn_le_length|exact I2].
Qed.

Lemma chunks_max_spec data : concat (chunks_max data) = data /\ ok_chunks (chunks_max data).
Proof. apply chunks_max_f_spec. lia. Qed.

(* [seal_chunks] computes these together with the sender's next nonce; the proofs below speak of
   [frames] only. *)
Fixpoint frames (n : N) (cs : list bytes) : list sealed :=
  match cs with
  | [] => []
  | c :: t => mkSealed n (mk_plain c) :: frames (n + 2) t
  end.

Lemma seal_chunks_frames n cs : seal_chunks n cs = (frames n cs, (n + 2 * N.of_nat (length cs))%N).
Proof.
  revert n; induction cs as [|c t IH]; intro n; cbn [seal_chunks frames length].
  - f_equal. lia.
  - rewrite IH. f_equal. lia.
Qed.

Lemma frames_app n cs1 cs2 :
  frames n (cs1 ++ cs2) = frames n cs1 ++ frames (n + 2 * N.of_nat (length cs1)) cs2.
Proof.
  revert n; induction cs1 as [|c t IH]; intro n; cbn [app frames length].
  - f_equal. lia.
  - rewrite IH. do 3 f_equal. lia.
Qed.

Lemma frames_length n cs : length (frames n cs) = length cs.
Proof. revert n; induction cs as [|c t IH]; intro n; cbn [frames length]; [|rewrite IH]; reflexivity. Qed.

Lemma frames_firstn j : forall n cs, firstn j (frames n cs) = frames n (firstn j cs).
Proof.
  induction j as [|j IH]; intros n [|c t]; cbn [frames firstn]; [reflexivity..|].
  rewrite IH. reflexivity.
Qed.

Lemma frames_nth_nonce k d : forall n cs, (k < length cs)%nat ->
  sl_nonce (nth k (frames n cs) d) = (n + 2 * N.of_nat k)%N.
Proof.
  induction k as [|k IH]; intros n [|c t] Hk; cbn [length] in Hk; try lia; cbn [frames nth].
  - cbn [sl_nonce]. lia.
  - rewrite IH by lia. lia.
Qed.

Lemma seal_chunks_nonces cs : forall n f, In f (fst (seal_chunks n cs)) -> (n <= sl_nonce f)%N.
Proof.
  intros n f. rewrite seal_chunks_frames. cbn [fst]. intro Hin.
  apply In_nth with (d := f) in Hin as (k & Hk & <-). rewrite frames_length in Hk.
  rewrite frames_nth_nonce by exact Hk. lia.
Qed.

Lemma sc_writes_chunks n ws : sc_writes n ws = seal_chunks n (concat (map chunks_max ws)).
Proof.
  revert n; induction ws as [|w t IH]; intro n; [reflexivity|].
  cbn [sc_writes map concat]. unfold sc_write.
  rewrite seal_chunks_frames, IH, !seal_chunks_frames, frames_app, app_length. f_equal. lia.
Qed.

Lemma concat_chunks_writes ws : concat (concat (map chunks_max ws)) = concat ws.
Proof.
  induction ws as [|w t IH]; [reflexivity|]. cbn [map concat]. rewrite concat_app, IH.
  f_equal. apply chunks_max_spec.
Qed.

Lemma ok_chunks_writes ws : ok_chunks (concat (map chunks_max ws)).
Proof.
  unfold ok_chunks. induction ws as [|w t IH]; [constructor|]. cbn [map concat].
  apply Forall_app. split; [apply chunks_max_spec|exact IH].
Qed.

Lemma sc_read_buf st n : r_buf st <> [] ->
  sc_read st n = (mkRecv (r_nonce st) (skipn n (r_buf st)) (r_in st), RData (firstn n (r_buf st))).
Proof. unfold sc_read. destruct (r_buf st); [congruence|reflexivity]. Qed.

Lemma sc_read_frame st n c rest : r_buf st = [] ->
  r_in st = WFrame (mkSealed (r_nonce st) (mk_plain c)) :: rest -> (length c <= data_max)%nat ->
  sc_read st n = (mkRecv (r_nonce st + 2)%N (skipn n c) rest, RData (firstn n c)).
Proof.
  intros Hb Hin Hc. unfold sc_read. rewrite Hb, Hin. cbn [sl_nonce sl_plain].
  rewrite N.eqb_refl, parse_mk_plain by exact Hc. reflexivity.
Qed.

Lemma sc_read_eof st n : r_buf st = [] -> r_in st = [] -> sc_read st n = (st, REof).
Proof. intros Hb Hin. unfold sc_read. rewrite Hb, Hin. reflexivity. Qed.

Lemma sc_read_wrong st n w rest : r_buf st = [] -> r_in st = w :: rest ->
  (match w with WFrame f => sl_nonce f <> r_nonce st | _ => True end) ->
  snd (sc_read st n) = RErr.
Proof.
  intros Hb Hin Hw. unfold sc_read. rewrite Hb, Hin. destruct w as [f| |]; [|reflexivity|reflexivity].
  destruct (N.eqb_spec (sl_nonce f) (r_nonce st)); [contradiction|reflexivity].
Qed.

Lemma sc_reads_data st n t st' b : sc_read st n = (st', RData b) ->
  sc_reads st (n :: t) = RData b :: sc_reads st' t.
Proof. intro H. cbn [sc_reads]. rewrite H. reflexivity. Qed.

Lemma sc_reads_stop st n t o : snd (sc_read st n) = o -> (forall b, o <> RData b) ->
  sc_reads st (n :: t) = [o].
Proof.
  intros <- Ho. cbn [sc_reads]. destruct (sc_read st n) as [st' [b| |]]; [|reflexivity..].
  destruct (Ho b eq_refl).
Qed.

Lemma delivered_stop o t : (forall b, o <> RData b) -> delivered (o :: t) = [].
Proof. intro Ho. destruct o as [b| |]; [destruct (Ho b eq_refl)|reflexivity..]. Qed.

Definition wrong_here (st : receiver) (cs : list bytes) (w : wire) : Prop :=
  match w with
  | WFrame f => (exists n cs0, In f (fst (seal_chunks n cs0)) /\ sl_nonce f <> r_nonce st)  (* an old or future genuine frame *)
  | WGarbled => True
  | WTruncated => True
  end.

(* The invariant of the reads: the sender's chunks [cs] are still in flight, in front of whatever
   else the wire carries ([tail]); [m] is the nonce the sender uses after [cs]. *)
Definition in_step (st : receiver) (cs : list bytes) (tail : list wire) (m : N) : Prop :=
  r_in st = map WFrame (frames (r_nonce st) cs) ++ tail /\ ok_chunks cs /\
  m = (r_nonce st + 2 * N.of_nat (length cs))%N.

Definition pending (st : receiver) (cs : list bytes) : bytes := r_buf st ++ concat cs.

Lemma sc_read_in_step st cs tail m n : in_step st cs tail m ->
  (r_buf st = [] /\ cs = [] /\ r_in st = tail /\ r_nonce st = m) \/
  (exists st' cs' b, sc_read st n = (st', RData b) /\ in_step st' cs' tail m /\
                     b ++ pending st' cs' = pending st cs).
Proof.
  intros (Hin & Hok & Hm). unfold pending.
  destruct (r_buf st) as [|x buf] eqn:Eb; [destruct cs as [|c t]|].
  - left. cbn [length N.of_nat] in Hm. rewrite Hin. repeat split. lia.
  - right. inversion Hok as [|? ? Hc Ht]; subst. cbn [frames map app] in Hin.
    eexists _, t, _. split; [apply sc_read_frame; eassumption|]. split.
    + unfold in_step. cbn [r_in r_nonce length]. repeat split; [exact Ht|lia].
    + cbn [r_buf concat app]. rewrite app_assoc, firstn_skipn. reflexivity.
  - right. eexists _, cs, _. split; [apply sc_read_buf; rewrite Eb; discriminate|]. split.
    + unfold in_step. cbn [r_in r_nonce]. auto.
    + cbn [r_buf]. rewrite app_assoc, firstn_skipn, Eb. reflexivity.
Qed.

(* [o] is what the Read that meets [tail] at nonce [m] returns: [REof] for [tail = []], [RErr] for a
   [tail] that begins with an item wrong for [m]. *)
Lemma sc_reads_in_step tail m o :
  (forall st n, r_buf st = [] -> r_in st = tail -> r_nonce st = m -> snd (sc_read st n) = o) ->
  (forall b, o <> RData b) ->
  forall ns st cs, in_step st cs tail m ->
  exists rest, delivered (sc_reads st ns) ++ rest = pending st cs /\
    forall o', In o' (sc_reads st ns) -> (exists b, o' = RData b) \/ (o' = o /\ rest = []).
Proof.
  intros Htail Ho. induction ns as [|n t IH]; intros st cs Hst.
  - exists (pending st cs). split; [reflexivity|intros o' []].
  - destruct (sc_read_in_step st cs tail m n Hst) as [(Hb & -> & Hin & Hm)|(st' & cs' & b & Hr & Hst' & Hsplit)].
    + rewrite (sc_reads_stop st n t o (Htail st n Hb Hin Hm) Ho), (delivered_stop o [] Ho).
      exists []. unfold pending. rewrite Hb. split; [reflexivity|]. intros o' [<-|[]]. auto.
    + rewrite (sc_reads_data _ _ _ _ _ Hr). destruct (IH st' cs' Hst') as (rest & I1 & I2).
      exists rest. cbn [delivered]. rewrite <- app_assoc, I1. split; [exact Hsplit|].
      intros o' [<-|H]; [left; eauto|exact (I2 o' H)].
Qed.

Theorem stream_exact n0 ws ns :
  Forall (fun n => (0 < n)%nat) ns ->
  let st0 := mkRecv n0 [] (map WFrame (fst (sc_writes n0 ws))) in
  let outs := sc_reads st0 ns in
  ~ In RErr outs /\
  exists rest, delivered outs ++ rest = concat ws /\ (In REof outs -> rest = []).
Proof.
  intros _ st0 outs. set (cs := concat (map chunks_max ws)).
  destruct (sc_reads_in_step [] (n0 + 2 * N.of_nat (length cs)) REof) with (ns := ns) (st := st0) (cs := cs)
    as (rest & H1 & H2).
  - intros st n Hb Hin _. rewrite (sc_read_eof st n Hb Hin). reflexivity.
  - discriminate.
  - unfold in_step, st0. cbn [r_in r_nonce]. rewrite sc_writes_chunks, seal_chunks_frames, app_nil_r.
    split; [reflexivity|]. split; [apply ok_chunks_writes|reflexivity].
  - unfold pending, st0, cs in H1. cbn [r_buf app] in H1. rewrite concat_chunks_writes in H1.
    split; [|exists rest; split; [exact H1|]].
    + intro H. apply H2 in H as [(b & E)|(E & _)]; discriminate.
    + intro H. apply H2 in H as [(b & E)|(_ & E)]; [discriminate|exact E].
Qed.

Theorem tamper_detected n0 ws j w tail ns :
  let frames := fst (sc_writes n0 ws) in
  (j <= length frames)%nat ->
  (match w with WFrame f => In f frames /\ f <> nth j frames (mkSealed 0 []) | _ => True end) ->
  Forall (fun n => (0 < n)%nat) ns ->
  let st0 := mkRecv n0 [] (map WFrame (firstn j frames) ++ w :: tail) in
  let outs := sc_reads st0 ns in
  ~ In REof outs /\ exists rest, delivered outs ++ rest = concat (firstn j (concat (map chunks_max ws))).
Proof.
  cbv zeta. rewrite sc_writes_chunks, seal_chunks_frames. cbn [fst].
  set (cs := concat (map chunks_max ws)). rewrite frames_length, frames_firstn. intros Hj Hw _.
  set (st0 := mkRecv n0 [] _).
  destruct (sc_reads_in_step (w :: tail) (n0 + 2 * N.of_nat j) RErr) with (ns := ns) (st := st0) (cs := firstn j cs)
    as (rest & H1 & H2).
  - intros st n Hb Hin Hm. apply (sc_read_wrong st n w tail Hb Hin). rewrite Hm.
    destruct w as [f| |]; trivial.
    (* a genuine frame with the nonce of frame j is frame j *)
    destruct Hw as [Hf Hne]. apply In_nth with (d := mkSealed 0 []) in Hf as (k & Hk & <-).
    rewrite frames_length in Hk. rewrite frames_nth_nonce by exact Hk.
    intro E. apply Hne. f_equal. lia.
  - discriminate.
  - unfold in_step. cbn [r_in r_nonce]. rewrite firstn_length_le by exact Hj.
    split; [reflexivity|]. split; [|reflexivity].
    pose proof (ok_chunks_writes ws) as Hok. fold cs in Hok.
    rewrite <- (firstn_skipn j cs) in Hok. apply Forall_app in Hok. apply Hok.
  - split; [|exists rest; exact H1]. intro H. apply H2 in H as [(b & E)|(E & _)]; discriminate.
Qed.
