(* Proofs about Model/TxExec.v: atomicity of a transaction, the nonce rule and replay protection
   over any sequence of blocks, independence of the verifier schedule, and determinism of the
   application's outputs across process lifetimes. *)
From Coq Require Import List NArith Bool Lia Arith.
From AnnVerif Require Import Model.TxExec.
Import ListNotations.
Open Scope N_scope.

Lemma nonce_of_set l a n b : nonce_of (set_nonce l a n) b = if a =? b then n else nonce_of l b.
Proof.
  induction l as [|[c m] t IH]; cbn [set_nonce nonce_of]; [reflexivity|].
  destruct (N.eqb_spec c a) as [->|Hc]; cbn [nonce_of].
  - destruct (a =? b); reflexivity.
  - rewrite IH. destruct (N.eqb_spec c b) as [->|]; [|reflexivity].
    destruct (N.eqb_spec a b); [congruence | reflexivity].
Qed.

Lemma exec_invalid_unchanged s t s' : exec_checked s t = (s', false) -> s' = s.
Proof.
  unfold exec_checked. destruct (t_sender t) as [a|]; [|now inversion 1].
  destruct (run_tx s a t) as [s1 ok]. destruct ok; inversion 1; reflexivity.
Qed.

Lemma exec_invalid_fst s t : snd (exec_checked s t) = false -> fst (exec_checked s t) = s.
Proof.
  destruct (exec_checked s t) as [s' v] eqn:E. cbn. intros ->. exact (exec_invalid_unchanged _ _ _ E).
Qed.

Lemma exec_valid_inv s t s' :
  exec_checked s t = (s', true) ->
  exists a, t_sender t = Some a /\ nonce_of (nonces s) a = t_nonce t /\ t_ok t = true /\
            s' = mkSt (set_nonce (nonces s) a (t_nonce t + 1)) (effects s ++ [t_id t]).
Proof.
  unfold exec_checked. destruct (t_sender t) as [a|]; [|now inversion 1].
  unfold run_tx. destruct (nonce_of (nonces s) a =? t_nonce t) eqn:E; cbn [negb].
  - destruct (t_ok t) eqn:Ok; cbn; inversion 1. exists a. apply N.eqb_eq in E. repeat split; auto.
  - inversion 1.
Qed.

Lemma exec_valid_iff s t :
  snd (exec_checked s t) = true <->
  exists a, t_sender t = Some a /\ nonce_of (nonces s) a = t_nonce t /\ t_ok t = true.
Proof.
  split.
  - destruct (exec_checked s t) as [s' v] eqn:E. cbn. intros ->.
    destruct (exec_valid_inv _ _ _ E) as (a & H1 & H2 & H3 & _). eauto.
  - intros (a & H1 & H2 & H3). unfold exec_checked, run_tx. rewrite H1, H2, N.eqb_refl, H3. reflexivity.
Qed.

Lemma exec_valid_nonce s t s' a :
  exec_checked s t = (s', true) -> t_sender t = Some a ->
  nonce_of (nonces s') a = nonce_of (nonces s) a + 1 /\
  (forall b, b <> a -> nonce_of (nonces s') b = nonce_of (nonces s) b).
Proof.
  intros H Ha. destruct (exec_valid_inv _ _ _ H) as (a' & H1 & H2 & _ & ->).
  rewrite Ha in H1. inversion H1; subst a'. cbn [nonces]. split.
  - now rewrite nonce_of_set, N.eqb_refl, H2.
  - intros b Hb. rewrite nonce_of_set. destruct (N.eqb_spec a b); [congruence | reflexivity].
Qed.

Lemma exec_block_length s txs : length (snd (exec_block s txs)) = length txs.
Proof.
  revert s. induction txs as [|t r IH]; intros s; cbn [exec_block]; [reflexivity|].
  destruct (exec_checked s t) as [s1 v]. specialize (IH s1). destruct (exec_block s1 r). cbn in *. lia.
Qed.

Lemma exec_block_app s a b :
  exec_block s (a ++ b) =
  let '(s1, va) := exec_block s a in let '(s2, vb) := exec_block s1 b in (s2, va ++ vb).
Proof.
  revert s. induction a as [|t r IH]; intros s; cbn [exec_block List.app].
  - destruct (exec_block s b); reflexivity.
  - destruct (exec_checked s t) as [s1 v]. rewrite IH.
    destruct (exec_block s1 r) as [s2 va]. destruct (exec_block s2 b). reflexivity.
Qed.

Lemma exec_block_cons_fst s t r : fst (exec_block s (t :: r)) = fst (exec_block (fst (exec_checked s t)) r).
Proof. cbn [exec_block]. destruct (exec_checked s t) as [s1 v]. cbn [fst]. now destruct (exec_block s1 r). Qed.

Lemma exec_block_app_fst s a b : fst (exec_block s (a ++ b)) = fst (exec_block (fst (exec_block s a)) b).
Proof. rewrite exec_block_app. destruct (exec_block s a) as [s1 va]. cbn [fst]. now destruct (exec_block s1 b). Qed.

Lemma exec_block_filter s txs :
  let '(s', vs) := exec_block s txs in
  exec_block s (applied txs vs) = (s', map (fun _ => true) (applied txs vs)).
Proof.
  revert s. induction txs as [|t r IH]; intros s; cbn [exec_block]; [reflexivity|].
  destruct (exec_checked s t) as [s1 v] eqn:E. specialize (IH s1).
  destruct (exec_block s1 r) as [s2 vs]. cbn [applied]. destruct v.
  - cbn [exec_block map]. rewrite E, IH. reflexivity.
  - apply exec_invalid_unchanged in E. subst s1. exact IH.
Qed.

Lemma exec_block_drop_invalid s a t b :
  snd (exec_checked (fst (exec_block s a)) t) = false ->
  fst (exec_block s (a ++ t :: b)) = fst (exec_block s (a ++ b)).
Proof. intros H. now rewrite !exec_block_app_fst, exec_block_cons_fst, exec_invalid_fst. Qed.

Definition is_an (a n : N) (t : tx) : bool :=
  match t_sender t with Some b => (b =? a) && (t_nonce t =? n) | None => false end.
Definition count_applied (a n : N) (txs : list tx) (vs : list bool) : nat :=
  length (filter (is_an a n) (applied txs vs)).

Lemma nonce_mono s txs a : nonce_of (nonces s) a <= nonce_of (nonces (fst (exec_block s txs))) a.
Proof.
  revert s. induction txs as [|t r IH]; intros s; cbn [exec_block]; [cbn; lia|].
  destruct (exec_checked s t) as [s1 v] eqn:E. specialize (IH s1).
  destruct (exec_block s1 r) as [s2 vs]. cbn [fst] in *.
  destruct v.
  - destruct (exec_valid_inv _ _ _ E) as (b & Hb & _).
    destruct (exec_valid_nonce _ _ _ _ E Hb) as [H1 H2].
    destruct (N.eq_dec a b) as [->|Hne]; [lia | rewrite H2 in IH by exact Hne; exact IH].
  - apply exec_invalid_unchanged in E. now subst.
Qed.

Lemma at_most_once_gen s txs a n :
  (nonce_of (nonces s) a <= n -> (count_applied a n txs (snd (exec_block s txs)) <= 1)%nat) /\
  (n < nonce_of (nonces s) a -> count_applied a n txs (snd (exec_block s txs)) = 0%nat).
Proof.
  revert s. induction txs as [|t r IH]; intros s; cbn [exec_block].
  - cbn. lia.
  - destruct (exec_checked s t) as [s1 v] eqn:E. specialize (IH s1).
    destruct (exec_block s1 r) as [s2 vs]. cbn [snd] in *. unfold count_applied in *. cbn [applied].
    destruct v; [|apply exec_invalid_unchanged in E; subst s1; exact IH].
    destruct (exec_valid_inv _ _ _ E) as (b & Hb & Hn & _).
    destruct (exec_valid_nonce _ _ _ _ E Hb) as [H1 H2].
    assert (Hi : is_an a n t = (b =? a) && (t_nonce t =? n)) by (unfold is_an; now rewrite Hb).
    cbn [filter]. rewrite Hi.
    destruct (N.eqb_spec b a) as [->|Hne]; cbn [andb].
    + rewrite H1 in IH. destruct (N.eqb_spec (t_nonce t) n); cbn [length]; lia.
    + rewrite H2 in IH by congruence. exact IH.
Qed.

Lemma at_most_once s txs a n : (count_applied a n txs (snd (exec_block s txs)) <= 1)%nat.
Proof. pose proof (at_most_once_gen s txs a n). lia. Qed.

Lemma replay_invalid s a t b :
  snd (exec_checked (fst (exec_block s a)) t) = true ->
  snd (exec_checked (fst (exec_block s (a ++ t :: b))) t) = false.
Proof.
  intros H. apply not_true_is_false. intros E.
  apply exec_valid_iff in E. destruct E as (x & Hx & Hn & _).
  rewrite exec_block_app_fst, exec_block_cons_fst in Hn.
  (* t applied raised x's nonce above its own, and no transaction lowers a nonce *)
  destruct (exec_checked (fst (exec_block s a)) t) as [s2 v] eqn:E1. cbn [fst snd] in *. subst v.
  destruct (exec_valid_inv _ _ _ E1) as (x' & Hx' & Hn1 & _). rewrite Hx in Hx'. injection Hx' as <-.
  destruct (exec_valid_nonce _ _ _ _ E1 Hx) as [Hup _].
  pose proof (nonce_mono s2 b x). lia.
Qed.

Definition settle (x : tx * status) : tx * status :=
  match x with (t, StInit) => (t, verify t) | _ => x end.
Lemma verify_not_init t : verify t <> StInit.
Proof. unfold verify. destruct (t_sender t); discriminate. Qed.
Lemma settle_idem x : settle (settle x) = settle x.
Proof.
  destruct x as [t st]. destruct st; cbn; try reflexivity.
  pose proof (verify_not_init t). destruct (verify t); [contradiction | reflexivity | reflexivity].
Qed.

Lemma claim_nth slots i j :
  nth_error (claim slots i) j =
  if Nat.eqb j i then option_map settle (nth_error slots j) else nth_error slots j.
Proof.
  revert i j. induction slots as [|[t st] r IH]; intros i j.
  - destruct i, j; cbn; try reflexivity; destruct (Nat.eqb _ _); reflexivity.
  - destruct i as [|i'].
    + destruct j as [|j']; destruct st; cbn; reflexivity.
    + destruct j as [|j']; cbn [claim nth_error Nat.eqb]; [destruct st; reflexivity|].
      destruct st; apply IH.
Qed.

Lemma sched_nth sched : forall slots j,
  nth_error (fold_left claim sched slots) j =
  option_map (fun x => if existsb (Nat.eqb j) sched then settle x else x) (nth_error slots j).
Proof.
  induction sched as [|i r IH]; intros slots j; cbn [fold_left existsb].
  - now destruct (nth_error slots j).
  - rewrite IH, claim_nth.
    destruct (Nat.eqb j i); cbn [orb]; destruct (nth_error slots j) as [x|]; cbn [option_map]; try reflexivity.
    rewrite settle_idem. now destruct (existsb _ r).
Qed.

Lemma claim_length slots i : length (claim slots i) = length slots.
Proof.
  revert i. induction slots as [|[t st] r IH]; intros i; [destruct i; reflexivity|].
  destruct i; destruct st; cbn; try reflexivity; now rewrite IH.
Qed.
Lemma nth_error_ext {A} (l l' : list A) : (forall j, nth_error l j = nth_error l' j) -> l = l'.
Proof.
  revert l'. induction l as [|x t IH]; intros l' H.
  - destruct l'; [reflexivity | specialize (H O); discriminate].
  - destruct l' as [|y t']; [specialize (H O); discriminate|].
    pose proof (H O) as H0. cbn in H0. inversion H0; subst. f_equal.
    apply IH. intros j. exact (H (S j)).
Qed.

Lemma fair_all_settled txs sched :
  fair_sched (length txs) sched = true ->
  run_sched sched txs = map (fun t => (t, verify t)) txs.
Proof.
  intros Hf. unfold run_sched. apply nth_error_ext. intros j.
  rewrite sched_nth, !nth_error_map. destruct (nth_error txs j) as [t|] eqn:Et; [|reflexivity].
  assert (Hj : (j < length txs)%nat) by (apply nth_error_Some; congruence).
  unfold fair_sched in Hf. rewrite forallb_forall in Hf.
  cbn [option_map]. rewrite (Hf j) by (apply in_seq; lia). reflexivity.
Qed.

Lemma exec_slots_settled s txs :
  exec_slots s (map (fun t => (t, verify t)) txs) = Some (exec_block s txs).
Proof.
  revert s. induction txs as [|t r IH]; intros s; cbn [map exec_slots exec_block]; [reflexivity|].
  unfold verify at 1. destruct (t_sender t) as [a|] eqn:Ha.
  - destruct (exec_checked s t) as [s1 v]. rewrite IH. destruct (exec_block s1 r). reflexivity.
  - rewrite IH. unfold exec_checked. rewrite Ha. destruct (exec_block s r). reflexivity.
Qed.

Lemma parallel_is_sequential s txs sched :
  fair_sched (length txs) sched = true -> exec_block_par sched s txs = Some (exec_block s txs).
Proof. intros H. unfold exec_block_par. rewrite (fair_all_settled _ _ H). apply exec_slots_settled. Qed.

Definition slot_for (x : tx * status) (t : tx) : Prop :=
  fst x = t /\ (snd x = StInit \/ snd x = verify t).

Lemma claim_slots slots txs i : Forall2 slot_for slots txs -> Forall2 slot_for (claim slots i) txs.
Proof.
  intros H. revert i. induction H as [|[t0 st] t l l' [Ht Hs] Hl IH]; intros i; [destruct i; constructor|].
  cbn in Ht, Hs. subst t0.
  destruct i, st; cbn [claim]; constructor; auto; split; auto.
Qed.

Lemma run_sched_slots sched txs : Forall2 slot_for (run_sched sched txs) txs.
Proof.
  unfold run_sched.
  assert (H : Forall2 slot_for (map (fun t => (t, StInit)) txs) txs)
    by (induction txs; constructor; [split; auto | assumption]).
  revert H. generalize (map (fun t => (t, StInit)) txs).
  induction sched as [|i q IH]; intros slots H; cbn [fold_left]; [exact H|]. now apply IH, claim_slots.
Qed.

Lemma exec_slots_sound slots txs :
  Forall2 slot_for slots txs -> forall s r, exec_slots s slots = Some r -> r = exec_block s txs.
Proof.
  induction 1 as [|[t0 st] t l l' [Ht Hs] Hl IH]; intros s r; cbn [exec_slots exec_block].
  - now inversion 1.
  - cbn in Ht, Hs. subst t0. destruct st.
    + discriminate.
    + destruct (exec_checked s t) as [s1 v]. specialize (IH s1).
      destruct (exec_slots s1 l) as [[s' vs]|]; [|discriminate]. inversion 1. now rewrite <- (IH _ eq_refl).
    + (* Failed is the verdict only when no sender recovers, and then exec_checked says the same *)
      destruct Hs as [Hs|Hs]; [discriminate|]. unfold verify in Hs. unfold exec_checked.
      destruct (t_sender t); [discriminate|]. specialize (IH s).
      destruct (exec_slots s l) as [[s' vs]|]; [|discriminate]. inversion 1. now rewrite <- (IH _ eq_refl).
Qed.

Lemma parallel_prefix_safe s txs sched r :
  exec_block_par sched s txs = Some r -> r = exec_block s txs.
Proof. apply exec_slots_sound, run_sched_slots. Qed.

Lemma run_app_chain h : forall a,
  acc a = [] -> fair h = true ->
  exists a', run_app a h = Some (a', run_chain (committed a) (blocks_of h)) /\ acc a' = [].
Proof.
  induction h as [|e r IH]; intros a Hacc Hf; cbn [run_app blocks_of run_chain].
  - eauto.
  - destruct e as [txs sched|].
    + cbn [fair] in Hf. apply andb_true_iff in Hf. destruct Hf as [Hs Hr].
      unfold on_execute. rewrite (parallel_is_sequential _ _ _ Hs).
      destruct (exec_block (committed a) txs) as [s' vs] eqn:E. cbn [on_commit current acc].
      destruct (IH (mkApp s' s' []) eq_refl Hr) as (a' & H1 & H2). cbn [committed] in H1.
      rewrite H1, Hacc. cbn [List.app run_chain]. rewrite E. eauto.
    + cbn [fair] in Hf. destruct (IH (restart a) eq_refl Hf) as (a' & H1 & H2).
      cbn [restart committed] in H1. eauto.
Qed.

Lemma replicas_agree h1 h2 :
  blocks_of h1 = blocks_of h2 -> fair h1 = true -> fair h2 = true ->
  exists a1 a2 outs, run_app app0 h1 = Some (a1, outs) /\ run_app app0 h2 = Some (a2, outs).
Proof.
  intros Hb F1 F2.
  destruct (run_app_chain h1 app0 eq_refl F1) as (a1 & H1 & _).
  destruct (run_app_chain h2 app0 eq_refl F2) as (a2 & H2 & _).
  rewrite Hb in H1. eauto.
Qed.

(* without the reset of the accumulators at commit the receipts would depend on the lifetime: the
   invariant the proof rests on is exactly acc = [] between blocks *)
Lemma acc_reset_needed :
  let t := mkTx 1 (Some 0) 0 true in
  let a := mkApp (mkSt [] []) (mkSt [] []) [7] in
  exists o1 o2 x y, run_app a [EBlock [t] [O]] = Some (x, o1) /\
                    run_app a [ERestart; EBlock [t] [O]] = Some (y, o2) /\ o1 <> o2.
Proof. cbv zeta. do 4 eexists. split; [vm_compute; reflexivity|]. split; [vm_compute; reflexivity|]. discriminate. Qed.
