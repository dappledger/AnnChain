(* What handling one input does to a node, as a sequence of actions.
   The invariants of the consensus state machine are about a few kinds of action - a vote or a
   proposal signed, the lock taken or dropped at a polka, a vote set grown, the height finished - and
   about what was known when each was taken; which enter* function called which, and behind which
   guard, matters to none of them.  [handle_trace] walks the control flow of Model/Node.v [handle]
   once and cuts the handling of an input into actions ([act]), maybe ended by [finalize_commit]
   ([trace]).  What holds of one run is then proved action by action: the lock discipline (C04) at
   the end of this file, the rest in NodeBacked, Emit, SgWalk, CommitWalk, Unlock and NoStaleLock. *)
From Coq Require Import List NArith ZArith Bool Lia.
From AnnVerif Require Import Base.Res Base.Bytes Model.VoteSet Model.ValSet Model.Node
 Proofs.NodeProofs.
Import ListNotations.
Open Scope Z_scope.

Definition idle (n : node) (o : list out) (n' : node) : Prop := frame n n' /\ sg n' = sg n /\ quiet_out o.

Lemma idle_refl n : idle n [] n.
Proof. split; [apply frame_refl|]. split; [reflexivity|apply quiet_nil]. Qed.
Lemma idle_trans a o1 b o2 c : idle a o1 b -> idle b o2 c -> idle a (o1 ++ o2) c.
Proof.
  intros (F1 & S1 & Q1) (F2 & S2 & Q2). split; [eapply frame_trans; eauto|]. split; [congruence|apply quiet_app; assumption].
Qed.
Lemma idle_frame n n' : frame n n' -> sg n' = sg n -> idle n [] n'.
Proof. intros F S. split; [exact F|]. split; [exact S|apply quiet_nil]. Qed.
Lemma idle_emit x n : quiet_out [x] -> idle n [x] n.
Proof. intro Q. split; [apply frame_refl|]. split; [reflexivity|exact Q]. Qed.

Lemma decide_proposal_quiet n n' o : decide_proposal n = Ok (n', o) -> quiet_out o.
Proof. intro E. apply (decide_proposal_inv _ _ _ E). Qed.

Section Acts.
(* [reached]: the timeout being handled, if any, is for a round the node has reached.  A node
   schedules no other, but the model handles any, and a precommit timeout for a round ahead makes the
   node precommit for its own round on the prevotes of the timeout's: the statements about emitted
   votes need [reached] (Emit passes [input_ok]); those about states hold without it and pass [False].
   [dv]: the votes the input delivers. *)
Variable reached : Prop.
Variable dv : list vote.

Inductive act : node -> list out -> node -> Prop :=
| a_idle n o n' : idle n o n' -> act n o n'
| a_prevote n n' o : do_prevote n = Ok (n', o) -> act n o n'
| a_propose n n' o : decide_proposal n = Ok (n', o) -> act n o n'
| a_precommit h r n n' o : enter_precommit h r n = Ok (n', o) -> (reached -> r <= round n) -> act n o n'
| a_unlock n R : act n [] (unlock_rule n R)
| a_rounds n k hv : hv_set_round (votes n) k = Ok hv -> act n [] (set_votes n hv)
| a_vote n v peer hv added code : In v dv -> hv_add_vote (votes n) v peer = Ok (hv, added, code) ->
    act n [] (set_votes n hv).

Inductive acts : node -> list out -> node -> Prop :=
| acts_nil n : acts n [] n
| acts_cons n o1 m o2 n' : act n o1 m -> acts m o2 n' -> acts n (o1 ++ o2) n'.

(* after [finalize_commit] has moved to the next height the node goes on acting only with
   skip-commit; otherwise all that follows is an error report *)
Inductive trace (c : cfg) : node -> list out -> node -> Prop :=
| tr_stay n o n' : acts n o n' -> trace c n o n'
| tr_next n o1 m h m' o2 o3 n' : acts n o1 m -> finalize_commit c h m = Ok (m', o2) -> height m' <> height m ->
    (c_skip_commit c = true -> trace c m' o3 n') -> (c_skip_commit c = false -> n' = m' /\ quiet_out o3) ->
    trace c n (o1 ++ o2 ++ o3) n'.

Lemma acts_one n o n' : act n o n' -> acts n o n'.
Proof. intro H. rewrite <- (app_nil_r o). eapply acts_cons; [exact H|constructor]. Qed.
Lemma acts_idle n o n' : idle n o n' -> acts n o n'.
Proof. intro H. apply acts_one, a_idle, H. Qed.
Lemma acts_app n o1 m o2 n' : acts n o1 m -> acts m o2 n' -> acts n (o1 ++ o2) n'.
Proof. induction 1; intro H2; [exact H2|]. rewrite <- app_assoc. eapply acts_cons; eauto. Qed.

Lemma act_keeps n o n' : act n o n' -> height n' = height n /\ round n <= round n'.
Proof.
  destruct 1 as [n o n' (F & _)|n n' o E|n n' o E|h r n n' o E _|n R|n k hv E|n v peer hv added code _ E].
  - destruct F as (A & _ & _ & _ & B). auto.
  - destruct (fsat_do_prevote _ _ _ E) as (A & _ & _ & _ & B). auto.
  - destruct (fsat_decide_proposal _ _ _ E) as (A & _ & _ & _ & B). auto.
  - apply enter_precommit_inv in E as [[-> _]|(Hr & _ & m & vb & n2 & Hc & Es & ->)]; [split; [reflexivity|lia]|].
    destruct (pc_choice_same _ _ _ _ Hc) as (A & _). destruct (fsat_sign_add_vote _ _ _ _ _ Es) as (B & _).
    cbn. split; [congruence|exact Hr].
  - destruct (unlock_rule_same n R) as (A & _ & B & _). split; [exact A|lia].
  - split; [reflexivity|cbn; lia].
  - split; [reflexivity|cbn; lia].
Qed.
Lemma act_votes n o n' : act n o n' ->
  votes n' = votes n \/ (exists k, hv_set_round (votes n) k = Ok (votes n')) \/
  (exists v peer added code, In v dv /\ hv_add_vote (votes n) v peer = Ok (votes n', added, code)).
Proof.
  destruct 1 as [n o n' (F & _)|n n' o E|n n' o E|h r n n' o E _|n R|n k hv E|n v peer hv added code Hv E].
  - left. apply F.
  - left. apply (fsat_do_prevote _ _ _ E).
  - left. apply (fsat_decide_proposal _ _ _ E).
  - left. apply enter_precommit_inv in E as [[-> _]|(_ & _ & m & vb & n2 & Hc & Es & ->)]; [reflexivity|].
    destruct (pc_choice_same _ _ _ _ Hc) as (_ & A & _). destruct (fsat_sign_add_vote _ _ _ _ _ Es) as (_ & B & _).
    cbn. congruence.
  - left. apply unlock_rule_same.
  - right. left. exists k. exact E.
  - right. right. exists v, peer, added, code. auto.
Qed.
Lemma act_lock n o n' : act n o n' ->
  (lblock n' = lblock n /\ lround n' = lround n) \/ lblock n' = None \/ lround n' = round n'.
Proof.
  destruct 1 as [n o n' (F & _)|n n' o E|n n' o E|h r n n' o E _|n R|n k hv E|n v peer hv added code Hv E]; auto.
  - left. split; apply F.
  - left. split; apply (fsat_do_prevote _ _ _ E).
  - left. split; apply (fsat_decide_proposal _ _ _ E).
  - apply enter_precommit_inv in E as [[-> _]|(_ & _ & m & vb & n2 & Hc & Es & ->)]; [auto|].
    destruct (fsat_sign_add_vote _ _ _ _ _ Es) as (_ & _ & A & B & _). cbn. rewrite A, B. apply (pc_choice_lock _ _ _ _ Hc).
  - destruct (unlock_rule_cases n R) as [[-> _]|[-> _]]; auto.
Qed.
Lemma acts_keeps n o n' : acts n o n' -> height n' = height n /\ round n <= round n'.
Proof.
  induction 1 as [|n o1 m o2 n' H1 _ [A B]]; [split; [reflexivity|lia]|].
  destruct (act_keeps _ _ _ H1) as [C D]. split; [congruence|lia].
Qed.

Lemma trace_pre c n o1 m o2 n' : acts n o1 m -> trace c m o2 n' -> trace c n (o1 ++ o2) n'.
Proof.
  intros H1 H2. revert n o1 H1. destruct H2 as [m o2 n' H2|m o2 m1 h m' o3 o4 n' H2 Hf Hh Hs Hq]; intros n o1 H1;
    [apply tr_stay; eapply acts_app; eauto|].
  rewrite app_assoc. eapply tr_next; eauto using acts_app.
Qed.
Lemma trace_app c n o m o2 n' : trace c n o m -> acts m o2 n' -> (c_skip_commit c = false -> n' = m /\ quiet_out o2) ->
  trace c n (o ++ o2) n'.
Proof.
  induction 1 as [n o m H1|n o1 m h m' o3 o4 m2 H1 Hf Hh Hs IH Hq]; intros H2 Hside; [apply tr_stay; eapply acts_app; eauto|].
  rewrite <- !app_assoc. eapply tr_next; eauto.
  intro Hc. destruct (Hq Hc) as [-> Q3]. destruct (Hside Hc) as [-> Q2]. split; [reflexivity|apply quiet_app; assumption].
Qed.

Lemma idle_set_step n r s : round n <= r -> idle n [] (set_step n r s).
Proof. intro H. apply idle_frame; [apply frame_set_step; exact H|reflexivity]. Qed.

Lemma report_idle code n n' o : report code n = Ok (n', o) -> n' = n /\ quiet_out o.
Proof. unfold report. destruct (N.eqb code 0); intro E; injection E as <- <-; split; auto using quiet_nil. intros x [<-|[]]. exact I. Qed.

Lemma enter_prevote_wait_idle h r n n' o : enter_prevote_wait h r n = Ok (n', o) -> idle n o n'.
Proof.
  unfold enter_prevote_wait. destruct (_ || _) eqn:Eg; [intro E; injection E as <- <-; apply idle_refl|].
  apply guard_round in Eg as [Hr _]. destruct (negb _); [discriminate|]. intro E. injection E as <- <-.
  apply (idle_trans n [_] n); [apply idle_emit; intros x [<-|[]]; exact I|apply idle_set_step; exact Hr].
Qed.
Lemma enter_precommit_wait_idle h r n n' o : enter_precommit_wait h r n = Ok (n', o) -> idle n o n'.
Proof.
  unfold enter_precommit_wait. destruct (_ || _) eqn:Eg; [intro E; injection E as <- <-; apply idle_refl|].
  apply guard_round in Eg as [Hr _]. destruct (negb _); [discriminate|]. intro E. injection E as <- <-.
  apply (idle_trans n [_] n); [apply idle_emit; intros x [<-|[]]; exact I|apply idle_set_step; exact Hr].
Qed.

Lemma set_proposal_idle p signer n n' o : set_proposal p signer n = Ok (n', o) -> idle n o n'.
Proof.
  assert (Herr : forall m e, idle m [OErr e] m) by (intros; apply idle_emit; intros x [<-|[]]; exact I).
  unfold set_proposal. destruct (proposal n); [intro E; injection E as <- <-; apply idle_refl|].
  destruct (_ || _); [intro E; injection E as <- <-; apply idle_refl|].
  destruct (8 <=? step n); [intro E; injection E as <- <-; apply idle_refl|].
  destruct (_ && _); [intro E; injection E as <- <-; apply Herr|].
  destruct ((p_total p <? 0) || (22020096 <? p_total p)); [intro E; injection E as <- <-; apply Herr|].
  destruct (proposer (vals n)) as [[[a|] vs']| |]; try discriminate.
  destruct (negb _); [intro E; injection E as <- <-; apply (idle_trans n [] (set_vals n vs') [_]); [apply idle_frame; [apply frame_set_vals|reflexivity]|apply Herr]|].
  destruct (new_pset _ _) as [ps| |]; try discriminate. intro E. injection E as <- <-.
  apply idle_frame; [eapply frame_trans; [apply frame_set_vals|apply frame_set_prop]|reflexivity].
Qed.

Lemma enter_prevote_acts h r n n' o : enter_prevote h r n = Ok (n', o) -> acts n o n'.
Proof.
  unfold enter_prevote. destruct (_ || _) eqn:Eg; [intro E; injection E as <- <-; constructor|].
  apply guard_round in Eg as [Hr _]. intro E. apply bind_ok in E as (n1 & o1 & o2 & E1 & E2 & ->). injection E2 as <- <-.
  eapply acts_cons; [apply a_prevote; exact E1|]. apply acts_idle, idle_set_step.
  apply do_prevote_inv in E1 as (b & E1 & _). apply sign_add_vote_inv in E1 as [[s ->] _]. exact Hr.
Qed.
Lemma enter_prevote_votes h r n n' o : enter_prevote h r n = Ok (n', o) -> votes n' = votes n.
Proof.
  unfold enter_prevote. destruct (_ || _); [intro E; injection E as <- _; reflexivity|].
  intro E. apply bind_ok in E as (m & ? & ? & Ep & Es & _). injection Es as <- _. apply (fsat_do_prevote _ _ _ Ep).
Qed.

Lemma prevote_if_complete_acts h n n' o : prevote_if_complete h n = Ok (n', o) -> acts n o n'.
Proof.
  unfold prevote_if_complete. destruct (is_proposal_complete n) as [[|]| |]; try discriminate;
    [apply enter_prevote_acts|intro E; injection E as <- <-; constructor].
Qed.

Lemma enter_propose_acts h r n n' o : enter_propose h r n = Ok (n', o) -> acts n o n'.
Proof.
  unfold enter_propose. destruct (_ || _) eqn:Eg; [intro E; injection E as <- <-; constructor|].
  apply guard_round in Eg as [Hr _]. intro E. apply bind_ok in E as (n3 & o1 & o2 & E1 & E2 & ->).
  assert (A1 : acts n o1 n3 /\ round n3 = round n).
  { apply bind_ok in E1 as (n1 & oa & ob & Ea & Eb & ->). injection Ea as <- <-.
    assert (At : acts n [OTimeout h r 3] n) by (apply acts_idle, idle_emit; intros x [<-|[]]; exact I).
    destruct (priv n) as [me|]; [|injection Eb as <- <-; split; [exact At|reflexivity]].
    destruct (proposer (vals n)) as [[[a|] vs']| |]; try discriminate.
    assert (Av : acts n [OTimeout h r 3] (set_vals n vs')).
    { rewrite <- (app_nil_r [_]). eapply acts_app; [exact At|]. apply acts_idle, idle_frame; [apply frame_set_vals|reflexivity]. }
    destruct (bytes_eqb a me); [|injection Eb as <- <-; split; [exact Av|reflexivity]].
    split; [eapply acts_app; [exact Av|apply acts_one, a_propose; exact Eb]|].
    apply decide_proposal_inv in Eb as [[s ->] _]. reflexivity. }
  destruct A1 as [A1 R1]. eapply acts_app; [exact A1|].
  change (prevote_if_complete h (set_step n3 r 3) = Ok (n', o2)) in E2.
  rewrite <- (app_nil_l o2). eapply acts_app; [apply acts_idle, (idle_set_step n3 r 3); lia|].
  eapply prevote_if_complete_acts; exact E2.
Qed.

Lemma enter_new_round_acts h r n n' o : enter_new_round h r n = Ok (n', o) -> acts n o n'.
Proof.
  unfold enter_new_round. destruct (_ || _) eqn:Eg; [intro E; injection E as <- <-; constructor|].
  apply guard_round in Eg as [Hr _].
  destruct (if round n <? r then increment (vals n) (r - round n) else Ok (vals n)) as [vs| |]; try discriminate.
  set (n2 := if r =? 0 then _ else _). destruct (hv_set_round (votes n2) (r + 1)) as [hv| |] eqn:Eh; try discriminate.
  intro E. rewrite <- (app_nil_l o). eapply acts_app; [|eapply enter_propose_acts; exact E].
  rewrite <- (app_nil_l []). eapply acts_app; [|apply acts_one; eapply a_rounds; exact Eh].
  apply acts_idle, idle_frame; [|unfold n2; destruct (r =? 0); reflexivity].
  unfold n2. destruct (r =? 0); repeat split; cbn; lia.
Qed.
Lemma enter_new_round_open_acts h r n n' o : enter_new_round_open h r n = Ok (n', o) -> acts n o n'.
Proof.
  unfold enter_new_round_open. destruct (step n <? 8); [apply enter_new_round_acts|intro E; injection E as <- <-; constructor].
Qed.

(* [step n' <= 4] when it came from an earlier round is what opens the guard of the enter_precommit
   that follows (NoStaleLock) *)
Lemma enter_new_round_reaches h r n n' o : height n = h -> enter_new_round h r n = Ok (n', o) ->
  r <= round n' /\ (round n <= r -> round n' = r /\ (round n < r -> step n' <= 4)).
Proof.
  intros Hh. unfold enter_new_round. destruct (_ || _) eqn:Eg.
  - intro E. injection E as <- _. rewrite Hh, Z.eqb_refl in Eg. cbn [negb orb] in Eg. lia.
  - destruct (if round n <? r then _ else _) as [vs| |]; try discriminate. cbn zeta.
    destruct (hv_set_round _ _) as [hv| |]; try discriminate. intro E.
    destruct (enter_propose_lands _ _ _ _ _ E) as (_ & Hs & Hrd); [|lia].
    (* the guard of enter_propose is open in the state just built: round r, step 1 *)
    destruct (r =? 0); cbn; rewrite Hh, Z.eqb_refl, Z.ltb_irrefl, Z.eqb_refl; reflexivity.
Qed.

Lemma try_finalize_commit_trace c h n n' o : try_finalize_commit c h n = Ok (n', o) -> trace c n o n'.
Proof.
  intro E. apply try_finalize_commit_inv in E as [[-> ->]|E]; [apply tr_stay; constructor|].
  destruct (Z.eq_dec (height n') (height n)) as [Heq|Hne].
  - apply finalize_commit_next in E as [[-> ->]|(Hh & _)]; [apply tr_stay; constructor|lia].
  - rewrite <- (app_nil_l o), <- (app_nil_r o). eapply (tr_next c n [] n h n' o [] n'); eauto using acts_nil.
    + intros _. apply tr_stay. constructor.
    + intros _. split; [reflexivity|apply quiet_nil].
Qed.

Lemma enter_commit_trace c h cr n n' o : enter_commit c h cr n = Ok (n', o) -> trace c n o n'.
Proof.
  intro E. apply enter_commit_inv in E as [(-> & -> & _)|(p & b & ps & E)]; [apply tr_stay; constructor|].
  rewrite <- (app_nil_l o). eapply trace_pre; [|eapply try_finalize_commit_trace; exact E].
  apply acts_idle, idle_frame; [|reflexivity].
  eapply frame_trans; [apply frame_set_prop|]. eapply frame_trans; [apply (frame_set_step _ (round n) 8); cbn; lia|apply frame_set_commit_round].
Qed.

Lemma add_part_trace c h idx b dec ver n n' o : add_part c h idx b dec ver n = Ok (n', o) -> trace c n o n'.
Proof.
  assert (Herr : forall e, trace c n [OErr e] n) by (intro; apply tr_stay, acts_idle, idle_emit; intros x [<-|[]]; exact I).
  unfold add_part. destruct (negb _); [intro E; injection E as <- <-; apply tr_stay; constructor|].
  destruct (pparts n) as [ps|]; [|intro E; injection E as <- <-; apply tr_stay; constructor].
  destruct (_ || _); [intro E; injection E as <- <-; apply Herr|].
  destruct (existsb _ _); [intro E; injection E as <- <-; apply tr_stay; constructor|].
  destruct (_ && _); [intro E; injection E as <- <-; apply Herr|]. cbn zeta.
  destruct (_ =? _); [|intro E; injection E as <- <-; apply tr_stay, acts_idle, idle_frame; [apply frame_set_prop|reflexivity]].
  set (n2 := set_prop (set_prop n _ _ _) _ _ _).
  intro E. apply bind_ok in E as (n3 & o1 & o2 & E1 & E2 & ->).
  assert (T1 : trace c n2 o1 n3).
  { revert E1. destruct (step n2 =? 3); [intro E1; apply tr_stay; eapply prevote_if_complete_acts; exact E1|].
    destruct (step n2 =? 8); [apply try_finalize_commit_trace|intro E1; injection E1 as <- <-; apply tr_stay; constructor]. }
  assert (T2 : n' = n3 /\ quiet_out o2).
  { destruct dec; injection E2 as <- <-; split; auto using quiet_nil. intros x [<-|[]]. exact I. }
  destruct T2 as [-> Q2]. rewrite <- (app_nil_l (o1 ++ o2)). eapply trace_pre.
  - apply acts_idle, (idle_frame n n2); [eapply frame_trans; apply frame_set_prop|reflexivity].
  - eapply trace_app; [exact T1|apply acts_idle; split; [apply frame_refl|auto]|auto].
Qed.

Lemma on_prevote_rest h R n n' o : height n = h -> on_prevote h R n = Ok (n', o) -> acts (unlock_rule n R) o n'.
Proof.
  intro Hh. unfold on_prevote. cbn zeta.
  destruct (unlock_rule_same n R) as (H2 & _). rewrite <- H2 in Hh.
  set (n2 := unlock_rule n R) in *. clearbody n2. destruct (_ && _).
  - intro E. apply bind_ok in E as (n3 & oa & ob & Ea & Eb & ->).
    eapply acts_app; [eapply enter_new_round_acts; exact Ea|].
    pose proof (proj1 (enter_new_round_reaches _ _ _ _ _ Hh Ea)) as Hr3. revert Eb.
    destruct (maj23 _); [intro Eb; apply acts_one; eapply a_precommit; [exact Eb|intros _; exact Hr3]|].
    intro Eb. apply bind_ok in Eb as (n4 & oc & od & Ec & Ed & ->).
    eapply acts_app; [eapply enter_prevote_acts; exact Ec|apply acts_idle; eapply enter_prevote_wait_idle; exact Ed].
  - destruct (proposal n2) as [p|]; [|intro E; injection E as <- <-; constructor].
    destruct (_ && _); [apply prevote_if_complete_acts|intro E; injection E as <- <-; constructor].
Qed.
Lemma on_prevote_acts h R n n' o : height n = h -> on_prevote h R n = Ok (n', o) -> acts n o n'.
Proof.
  intros Hh E. rewrite <- (app_nil_l o). eapply acts_app; [apply acts_one, a_unlock|eapply on_prevote_rest; eauto].
Qed.

Lemma round_then_precommit_acts h R n n' o : height n = h ->
  (enter_new_round h R n >>= enter_precommit h R) = Ok (n', o) -> acts n o n'.
Proof.
  intros Hh E. apply bind_ok in E as (n2 & oa & ob & Ea & Eb & ->).
  eapply acts_app; [eapply enter_new_round_acts; exact Ea|].
  apply acts_one. eapply a_precommit; [exact Eb|]. intros _. eapply enter_new_round_reaches; eauto.
Qed.

Lemma on_precommit_trace c h R n n' o : height n = h -> on_precommit c h R n = Ok (n', o) -> trace c n o n'.
Proof.
  intro Hh. unfold on_precommit. destruct (maj23 _) as [b|].
  - destruct (b_hash b); [intro E; apply tr_stay; eapply enter_new_round_open_acts; exact E|].
    intro E. apply bind_ok in E as (n4 & oa & ob & Ea & Eb & ->).
    apply bind_ok in Ea as (n3 & oc & od & Ec & Ed & ->).
    assert (T4 : trace c n (oc ++ od) n4).
    { eapply trace_pre; [eapply round_then_precommit_acts; eauto|eapply enter_commit_trace; exact Ed]. }
    revert Eb. destruct (c_skip_commit c) eqn:Ec'; cbn [andb].
    + destruct (match hv_precommits (votes n) R with Some vs => has_all vs | None => false end).
      * intro Eb. eapply trace_app; [exact T4|eapply enter_new_round_acts; exact Eb|congruence].
      * intro Eb. injection Eb as <- <-. rewrite app_nil_r. exact T4.
    + intro Eb. injection Eb as <- <-. rewrite app_nil_r. exact T4.
  - destruct (_ && _); [|intro E; injection E as <- <-; apply tr_stay; constructor].
    intro E. apply bind_ok in E as (n3 & oa & ob & Ea & Eb & ->). apply tr_stay.
    eapply acts_app; [eapply round_then_precommit_acts; eauto|apply acts_idle; eapply enter_precommit_wait_idle; exact Eb].
Qed.

Lemma on_last_commit_acts c v n n' o : on_last_commit c v n = Ok (n', o) -> acts n o n'.
Proof.
  assert (Herr : forall e, acts n [OErr e] n) by (intro; apply acts_idle, idle_emit; intros x [<-|[]]; exact I).
  unfold on_last_commit. destruct (negb _); [intro E; injection E as <- <-; apply Herr|].
  destruct (last_commit n) as [lc|]; [|intro E; injection E as <- <-; apply Herr].
  destruct (add_vote lc v) as [[[lc' added] code]| |]; try discriminate. cbn zeta.
  intro E. apply bind_ok in E as (n2 & o1 & o2 & Ea & Eb & ->). apply report_idle in Eb as [-> Q].
  rewrite <- (app_nil_l (o1 ++ o2)). eapply acts_app; [apply acts_idle, idle_frame; [apply (frame_set_last_commit n (Some lc'))|reflexivity]|].
  eapply acts_app; [|apply acts_idle; split; [apply frame_refl|auto]].
  revert Ea. destruct (_ && _); [apply enter_new_round_acts|intro E; injection E as <- <-; constructor].
Qed.
Lemma on_last_commit_step c v n n' o : c_skip_commit c = false -> on_last_commit c v n = Ok (n', o) -> step n' = step n.
Proof.
  intro Hskip. unfold on_last_commit. destruct (negb _); [intro E; injection E as <- _; reflexivity|].
  destruct (last_commit n) as [lc|]; [|intro E; injection E as <- _; reflexivity].
  destruct (add_vote lc v) as [[[lc' added] code]| |]; try discriminate. rewrite Hskip, andb_false_r. cbn [andb].
  intro E. apply bind_ok in E as (n2 & o1 & o2 & Ea & Eb & _). injection Ea as <- _. apply report_idle in Eb as [-> _]. reflexivity.
Qed.

Lemma add_vote_cs_trace c v peer n n' o : In v dv -> add_vote_cs c v peer n = Ok (n', o) -> trace c n o n'.
Proof.
  intros Hv E. apply add_vote_cs_cases in E as [[_ E]|[(_ & hv & added & code & Ea & E)|(_ & -> & ->)]].
  - apply tr_stay. eapply on_last_commit_acts; exact E.
  - apply bind_ok in E as (n5 & o1 & o2 & Eb & Ec & ->). apply report_idle in Ec as [-> Q].
    eapply trace_app; [|apply acts_idle; split; [apply frame_refl|eauto]|auto].
    rewrite <- (app_nil_l o1). eapply trace_pre; [apply acts_one; eapply a_vote; eauto|].
    revert Eb. destruct (negb added); [intro E; injection E as <- <-; apply tr_stay; constructor|].
    destruct (N.eqb (v_type v) 1); [intro E; apply tr_stay; eapply on_prevote_acts; [|exact E]; reflexivity|].
    destruct (N.eqb (v_type v) 2); [apply on_precommit_trace; reflexivity|discriminate].
  - apply tr_stay, acts_idle, idle_emit. intros x [<-|[]]. exact I.
Qed.

Lemma handle_timeout_acts h r s n n' o : (reached -> r <= round n) -> handle_timeout h r s n = Ok (n', o) -> acts n o n'.
Proof.
  intro Hr. unfold handle_timeout. destruct (_ || _); [intro E; injection E as <- <-; constructor|].
  destruct (s =? 1); [apply enter_new_round_acts|]. destruct (s =? 3); [apply enter_prevote_acts|].
  destruct (s =? 5); [intro E; apply acts_one; eapply a_precommit; eauto|].
  destruct (s =? 7); [apply enter_new_round_acts|discriminate].
Qed.

Theorem handle_trace c i n n' o :
  (forall h r s, i = ITimeout h r s -> reached -> r <= round n) -> (forall v peer, i = IVote v peer -> In v dv) ->
  handle c i n = Ok (n', o) -> trace c n o n'.
Proof.
  intros Ht Hv. destruct i as [p signer peer|h r idx b dec peer|v peer|h r s]; cbn [handle].
  - intro E. apply tr_stay, acts_idle. eapply set_proposal_idle; exact E.
  - apply add_part_trace.
  - apply add_vote_cs_trace. eapply Hv; reflexivity.
  - intro E. apply tr_stay. eapply handle_timeout_acts; [|exact E]. eapply Ht; reflexivity.
Qed.

Section StateRel.
Variable R : node -> node -> Prop.
Hypothesis R_refl : forall n, R n n.
Hypothesis R_trans : forall a b c, R a b -> R b c -> R a c.
Hypothesis R_act : forall n o n', act n o n' -> R n n'.

Lemma acts_rel n o n' : acts n o n' -> R n n'.
Proof. induction 1; eauto. Qed.
Lemma trace_rel c n o n' : (forall h m m' o2, finalize_commit c h m = Ok (m', o2) -> R m m') -> trace c n o n' -> R n n'.
Proof.
  intros Hf. induction 1 as [n o n' H|n o1 m h m' o2 o3 n' H1 Hfin Hh Hs IH Hq]; [eapply acts_rel; eauto|].
  eapply R_trans; [eapply acts_rel; eauto|]. eapply R_trans; [eapply Hf; eauto|].
  destruct (c_skip_commit c) eqn:Ec; [apply IH; reflexivity|destruct (Hq eq_refl) as [-> _]; apply R_refl].
Qed.
End StateRel.

Lemma trace_height c n o n' : trace c n o n' -> height n <= height n'.
Proof.
  induction 1 as [n o n' H|n o1 m h m' o2 o3 n' H1 Hfin Hh Hs IH Hq]; [apply acts_keeps in H as [-> _]; lia|].
  apply acts_keeps in H1 as [H1 _]. apply finalize_commit_next in Hfin as [[-> _]|(Hm & _)]; [contradiction|].
  destruct (c_skip_commit c) eqn:Ec; [specialize (IH eq_refl); lia|destruct (Hq eq_refl) as [-> _]; lia].
Qed.

End Acts.

Corollary handle_trace_any c i n n' o : handle c i n = Ok (n', o) ->
  trace False (match i with IVote v _ => [v] | _ => [] end) c n o n'.
Proof. apply handle_trace; [intros h r s _ []|intros v peer ->; left; reflexivity]. Qed.

Lemma act_G reached dv n o n' : act reached dv n o n' -> G n n'.
Proof.
  destruct 1 as [n o n' (F & _)|n n' o E|n n' o E|h r n n' o E _|n R|n k hv E|n v peer hv added code _ E].
  - apply frame_G, F.
  - apply frame_G. eapply fsat_do_prevote; exact E.
  - apply frame_G. eapply fsat_decide_proposal; exact E.
  - eapply sat_enter_precommit; exact E.
  - apply unlock_rule_G.
  - apply votes_G. apply (hv_set_round_le _ _ _ E).
  - apply votes_G. apply (hv_add_vote_le _ _ _ _ _ _ E).
Qed.

(* for the lock discipline any timeout will do, also one for a round the node has not reached *)
Theorem sat_handle c i : sat (handle c i).
Proof.
  intros n n' o E.
  eapply (trace_rel False (match i with IVote v _ => [v] | _ => [] end) G G_refl G_trans (act_G _ _)).
  - intros h m m' o2. apply sat_finalize_commit.
  - apply handle_trace_any, E.
Qed.

(* a reflexive and transitive relation that holds of every handled input holds of every run *)
Lemma run_rel (R : node -> node -> Prop) c : (forall n, R n n) -> (forall a b d, R a b -> R b d -> R a d) ->
  (forall i n n' o, handle c i n = Ok (n', o) -> R n n') -> forall ins n n', run c ins n = Ok n' -> R n n'.
Proof.
  intros Hrefl Htrans Hstep. induction ins as [|i t IH]; intros n n'; cbn [run].
  - intro E. injection E as <-. apply Hrefl.
  - destruct (handle c i n) as [[n1 o]| |] eqn:E1; try discriminate. intro E2.
    eapply Htrans; [eapply Hstep; exact E1|apply IH; exact E2].
Qed.

Theorem run_G c ins n n' : run c ins n = Ok n' -> G n n'.
Proof. apply run_rel; [apply G_refl|apply G_trans|intros i m m' o; apply sat_handle]. Qed.

Lemma init_inv h vs lc me s n : init_node h vs lc me s = Ok n -> inv n.
Proof.
  unfold init_node. destruct (new_hvs _ _) as [hv| |]; try discriminate. intro E. injection E as <-. exact I.
Qed.

Theorem reachable_lock_discipline c h vs lc me s ins n0 n :
  init_node h vs lc me s = Ok n0 -> run c ins n0 = Ok n -> inv n.
Proof. intros Hi Hr. apply (run_G c ins n0 n Hr). eapply init_inv; eauto. Qed.

Theorem lock_kept_or_released c ins n n' B : inv n -> run c ins n = Ok n' -> height n' = height n ->
  lblock n = Some B ->
  (exists B', lblock n' = Some B' /\ bk_hash B' = bk_hash B /\ lround n <= lround n') \/
  (exists r x, lround n < r <= round n' /\ polka_at (votes n') r x /\ hashes_to (Some B) (b_hash x) = false).
Proof.
  intros Hi Hr Hh El. destruct (run_G c ins n n' Hr Hi) as (_ & _ & S). destruct (S Hh) as (_ & HL & _).
  unfold L in HL. rewrite El in HL. destruct HL as [H|(r & x & A & B0 & C & D)]; [left; exact H|right].
  exists r, x. repeat split; assumption.
Qed.

(* Heights and rounds never go back and majorities stay, whatever the state: the part of [G] that
   needs no invariant. *)
Definition onward (n n' : node) : Prop :=
  height n <= height n' /\ (height n' = height n -> round n <= round n' /\ hv_le (votes n) (votes n')).

Lemma onward_refl n : onward n n.
Proof. split; [lia|]. intros _. split; [lia|apply hv_le_refl]. Qed.
Lemma onward_trans a b d : onward a b -> onward b d -> onward a d.
Proof.
  intros [A1 A2] [B1 B2]. split; [lia|]. intro E.
  destruct (A2 ltac:(lia)) as [X1 X2]. destruct (B2 ltac:(lia)) as [Y1 Y2]. split; [lia|eapply hv_le_trans; eauto].
Qed.

Lemma act_onward reached dv n o n' : act reached dv n o n' -> onward n n'.
Proof.
  intro H. destruct (act_keeps _ _ _ _ _ H) as [A B]. split; [lia|]. intros _. split; [exact B|].
  destruct (act_votes _ _ _ _ _ H) as [->|[(k & E)|(v & peer & added & code & _ & E)]].
  - apply hv_le_refl.
  - apply (hv_set_round_le _ _ _ E).
  - apply (hv_add_vote_le _ _ _ _ _ _ E).
Qed.

Theorem handle_onward c i n n' o : handle c i n = Ok (n', o) -> onward n n'.
Proof.
  intro E. eapply (trace_rel False (match i with IVote v _ => [v] | _ => [] end) onward onward_refl onward_trans (act_onward _ _)).
  - intros h m m' o2 Hf. apply finalize_commit_next in Hf as [[-> _]|(Hh & _)]; [apply onward_refl|]. split; [lia|intro; lia].
  - apply handle_trace_any, E.
Qed.

Theorem run_onward c ins n n' : run c ins n = Ok n' -> onward n n'.
Proof. apply run_rel; [apply onward_refl|apply onward_trans|apply handle_onward]. Qed.
