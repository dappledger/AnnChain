(* Proofs about Model.MConn (gemmill/p2p/connection.go, Channel) and Model.Admission, for C20:
   whatever the interleaving of the channels' packets, each channel delivers its messages complete
   and in order as long as every message fits its capacity; a message above the capacity fails the
   connection; what an admitted peer satisfies, and the decision on all 640 configurations. *)
From Coq Require Import List NArith Lia Bool Arith.
From AnnVerif Require Import Base.Bytes Model.MConn Model.Admission.
Import ListNotations.

(* [payload_max] is never unfolded below (a unary 1024 is slow to check): that it is positive is
   all the proofs need *)
Lemma payload_max_pos : (0 < payload_max)%nat.
Proof. apply Nat.lt_0_succ. Qed.

Lemma packetise_f_concat fuel c : forall msg, (length msg <= fuel)%nat ->
  concat (map pk_bytes (packetise_f fuel c msg)) = msg /\
  Forall (fun p => pk_ch p = c /\ (length (pk_bytes p) <= payload_max)%nat) (packetise_f fuel c msg).
Proof.
  pose proof payload_max_pos as Hpos.
  induction fuel as [|f IH]; intros msg Hl; cbn [packetise_f].
  - destruct msg; [|simpl in Hl; lia]. split; [reflexivity|]. constructor; [|constructor]. split; [reflexivity|apply Nat.le_0_l].
  - destruct (Nat.leb_spec (length msg) payload_max) as [Hle|Hgt].
    + cbn [map concat pk_bytes]. rewrite app_nil_r. split; [reflexivity|]. constructor; [|constructor]. split; [reflexivity|exact Hle].
    + destruct (IH (skipn payload_max msg)) as [I1 I2]; [rewrite skipn_length; lia|].
      cbn [map concat pk_bytes]. rewrite I1. split; [apply firstn_skipn|].
      constructor; [|exact I2]. split; [reflexivity|]. apply firstn_le_length.
Qed.

Lemma rupd_same s c b : rupd s c b c = b.
Proof. unfold rupd. rewrite N.eqb_refl. reflexivity. Qed.

Lemma rupd_other s c b x : x <> c -> rupd s c b x = s x.
Proof. intro H. unfold rupd. apply N.eqb_neq in H. rewrite H. reflexivity. Qed.

Lemma rupd_twice s c a b x : rupd (rupd s c a) c b x = rupd s c b x.
Proof. unfold rupd. destruct (N.eqb x c); reflexivity. Qed.

Definition after (s : rstate) (p : packet) : rstate :=
  rupd s (pk_ch p) (if pk_eof p then [] else s (pk_ch p) ++ pk_bytes p).
Definition deliver (s : rstate) (p : packet) (ms : list (N * bytes)) : list (N * bytes) :=
  if pk_eof p then (pk_ch p, s (pk_ch p) ++ pk_bytes p) :: ms else ms.

Lemma recv_all_cons cap s p t :
  recv_all cap s (p :: t) =
  if Nat.ltb (cap (pk_ch p)) (length (s (pk_ch p)) + length (pk_bytes p)) then ([], true)
  else (deliver s p (fst (recv_all cap (after s p) t)), snd (recv_all cap (after s p) t)).
Proof.
  cbn [recv_all]. unfold recv_packet, after, deliver.
  destruct (Nat.ltb _ _); [reflexivity|].
  destruct (pk_eof p); destruct (recv_all cap _ t); reflexivity.
Qed.

Lemma recv_all_agree cap l : forall s1 s2, (forall p, In p l -> s1 (pk_ch p) = s2 (pk_ch p)) ->
  recv_all cap s1 l = recv_all cap s2 l.
Proof.
  induction l as [|p t IH]; intros s1 s2 He; [reflexivity|].
  rewrite !recv_all_cons. unfold deliver. rewrite (He p (or_introl eq_refl)).
  rewrite (IH (after s1 p) (after s2 p)); [reflexivity|].
  intros q Hq. unfold after, rupd. rewrite (He p (or_introl eq_refl)).
  destruct (N.eqb (pk_ch q) (pk_ch p)); [reflexivity|apply He; right; exact Hq].
Qed.

Lemma recv_all_ext cap l s1 s2 : (forall c, s1 c = s2 c) -> recv_all cap s1 l = recv_all cap s2 l.
Proof. intro He. apply recv_all_agree. intros p _. apply He. Qed.

Lemma recv_message cap fuel c : forall msg s rest, (length msg <= fuel)%nat ->
  recv_all cap s (packetise_f fuel c msg ++ rest) =
  if Nat.ltb (cap c) (length (s c) + length msg) then ([], true)
  else ((c, s c ++ msg) :: fst (recv_all cap (rupd s c []) rest), snd (recv_all cap (rupd s c []) rest)).
Proof.
  pose proof payload_max_pos as Hpos.
  induction fuel as [|f IH]; intros msg s rest Hl; cbn [packetise_f].
  - destruct msg; [|simpl in Hl; lia]. cbn [app]. rewrite recv_all_cons. reflexivity.
  - destruct (Nat.leb_spec (length msg) payload_max) as [Hle|Hgt]; cbn [app]; rewrite recv_all_cons;
      unfold after, deliver; cbn [pk_ch pk_bytes pk_eof]; [reflexivity|].
    rewrite IH by (rewrite skipn_length; lia). rewrite rupd_same.
    rewrite (recv_all_ext cap rest _ _ (rupd_twice s c _ [])).
    rewrite <- app_assoc, firstn_skipn, app_length, skipn_length, firstn_length_le by lia.
    (* this packet or a later one crosses the limit exactly if the whole message does *)
    destruct (Nat.ltb_spec (cap c) (length (s c) + payload_max)),
             (Nat.ltb_spec (cap c) (length (s c) + payload_max + (length msg - payload_max))),
             (Nat.ltb_spec (cap c) (length (s c) + length msg)); (reflexivity || lia).
Qed.

Theorem over_capacity_rejected cap c msg : (cap c < length msg)%nat ->
  recv_all cap rinit (packetise c msg) = ([], true).
Proof.
  intro Hbig. rewrite <- (app_nil_r (packetise c msg)). unfold packetise.
  rewrite recv_message by apply le_n.
  apply Nat.ltb_lt in Hbig. cbn [rinit length Nat.add]. rewrite Hbig. reflexivity.
Qed.

Lemma recv_messages cap c msgs : forall s rest, s c = [] ->
  Forall (fun m => (length m <= cap c)%nat) msgs ->
  recv_all cap s (concat (map (packetise c) msgs) ++ rest) =
  (map (fun m => (c, m)) msgs ++ fst (recv_all cap (rupd s c []) rest), snd (recv_all cap (rupd s c []) rest)).
Proof.
  induction msgs as [|m t IH]; intros s rest Hs Hfit.
  - cbn [map concat app].
    rewrite (recv_all_ext cap rest (rupd s c []) s); [apply surjective_pairing|].
    intro x. unfold rupd. destruct (N.eqb_spec x c); [subst; symmetry; exact Hs|reflexivity].
  - inversion Hfit as [|? ? Hm Ht]; subst. cbn [map concat]. rewrite <- app_assoc. unfold packetise at 1.
    rewrite recv_message by apply le_n. rewrite Hs. cbn [length Nat.add app].
    apply Nat.ltb_ge in Hm. rewrite Hm.
    rewrite (IH (rupd s c []) rest (rupd_same s c []) Ht).
    rewrite (recv_all_ext cap rest _ _ (rupd_twice s c [] [])). reflexivity.
Qed.

Definition proj (c : N) (l : list packet) : list packet := filter (fun p => N.eqb (pk_ch p) c) l.
Definition on_ch (c : N) (ms : list (N * bytes)) : list (N * bytes) := filter (fun x => N.eqb (fst x) c) ms.

Lemma proj_cons c p t : proj c (p :: t) = if N.eqb (pk_ch p) c then p :: proj c t else proj c t.
Proof. reflexivity. Qed.

Lemma on_ch_deliver c s p ms :
  on_ch c (deliver s p ms) = if N.eqb (pk_ch p) c then deliver s p (on_ch c ms) else on_ch c ms.
Proof.
  unfold deliver. destruct (pk_eof p); [|destruct (N.eqb (pk_ch p) c); reflexivity].
  cbn [on_ch filter fst]. destruct (N.eqb (pk_ch p) c); reflexivity.
Qed.

Lemma recv_all_proj_after cap c s p t : pk_ch p <> c ->
  recv_all cap (after s p) (proj c t) = recv_all cap s (proj c t).
Proof.
  intro Hc. apply recv_all_agree. intros q Hq. apply filter_In in Hq as [_ Hq]. apply N.eqb_eq in Hq.
  unfold after. apply rupd_other. congruence.
Qed.

Lemma delivered_on_own_channel cap c l : forall s,
  Forall (fun x => fst x = c) (fst (recv_all cap s (proj c l))).
Proof.
  induction l as [|p t IH]; intro s; [constructor|].
  rewrite proj_cons. destruct (N.eqb_spec (pk_ch p) c) as [E|E]; [|apply IH].
  rewrite recv_all_cons. destruct (Nat.ltb _ _); [constructor|]. cbn [fst]. unfold deliver.
  destruct (pk_eof p); [constructor; [exact E|]|]; apply IH.
Qed.

Lemma interleaving_independent cap l : forall s,
  (forall c, snd (recv_all cap s (proj c l)) = false) ->
  snd (recv_all cap s l) = false /\
  forall c, on_ch c (fst (recv_all cap s l)) = fst (recv_all cap s (proj c l)).
Proof.
  induction l as [|p t IH]; intros s Hok; [split; reflexivity|].
  (* the first packet behaves as in its own channel's sequence *)
  pose proof (Hok (pk_ch p)) as H0. rewrite proj_cons, N.eqb_refl, recv_all_cons in H0.
  rewrite recv_all_cons.
  destruct (Nat.ltb _ _) eqn:Ecap; [discriminate|]. cbn [fst snd] in *.
  destruct (IH (after s p)) as [I1 I2].
  { intro c. destruct (N.eq_dec (pk_ch p) c) as [<-|E]; [exact H0|].
    rewrite recv_all_proj_after by exact E. specialize (Hok c).
    rewrite proj_cons in Hok. apply N.eqb_neq in E. rewrite E in Hok. exact Hok. }
  split; [exact I1|]. intro c. rewrite on_ch_deliver, I2, proj_cons.
  destruct (N.eqb_spec (pk_ch p) c) as [<-|E].
  - rewrite recv_all_cons, Ecap. reflexivity.
  - rewrite recv_all_proj_after by exact E. reflexivity.
Qed.

(* [l] is any interleaving of the channels' packet sequences that keeps each channel's own order:
   that is what the hypothesis on [proj c l], a filter, says *)
Theorem channel_order cap (msgs : N -> list bytes) (l : list packet) :
  (forall c, proj c l = concat (map (packetise c) (msgs c))) ->
  (forall c, Forall (fun m => (length m <= cap c)%nat) (msgs c)) ->
  snd (recv_all cap rinit l) = false /\
  forall c, on_ch c (fst (recv_all cap rinit l)) = map (fun m => (c, m)) (msgs c).
Proof.
  intros Hproj Hfit.
  assert (Hone : forall c, recv_all cap rinit (proj c l) = (map (fun m => (c, m)) (msgs c), false)).
  { intro c. rewrite Hproj. rewrite <- (app_nil_r (concat _)).
    rewrite (recv_messages cap c (msgs c) rinit [] eq_refl (Hfit c)). cbn. rewrite app_nil_r. reflexivity. }
  destruct (interleaving_independent cap l rinit) as [H1 H2]; [intro c; rewrite Hone; reflexivity|].
  split; [exact H1|]. intro c. rewrite H2, Hone. reflexivity.
Qed.

Theorem admission_sound i : admission i = PeerAdmitted ->
  a_refused i = false /\ a_key_match i = true /\ a_self i = false /\
  (a_auth_by_ca i = true ->
     (a_is_validator i = true /\ a_nonval_auth i = false) \/ (a_has_ca i = true /\ a_sig i = SigCurrentCA)).
Proof.
  unfold admission.
  destruct (a_refused i); [discriminate|].
  destruct (a_auth_by_ca i && negb (ca_ok i)) eqn:Eca; [discriminate|].
  destruct (a_key_match i); [|discriminate]. destruct (a_self i); [discriminate|]. intros _.
  repeat split. intro Ha. rewrite Ha in Eca. apply negb_false_iff in Eca. unfold ca_ok in Eca.
  destruct (a_is_validator i && negb (a_nonval_auth i)) eqn:Ev.
  - left. apply andb_true_iff in Ev as [E1 E2]. apply negb_true_iff in E2. auto.
  - right. destruct (a_has_ca i); [|discriminate]. destruct (a_sig i); try discriminate. auto.
Qed.

Definition all_bools := [true; false].
Definition all_sigs := [SigCurrentCA; SigRemovedCA; SigNonCA; SigInvalid; SigMalformed].
Definition all_inputs : list adm_in :=
  flat_map (fun r => flat_map (fun ca => flat_map (fun v => flat_map (fun nv => flat_map (fun sg =>
  flat_map (fun hc => flat_map (fun km => map (fun sf => mkAdm r ca v nv sg hc km sf) all_bools) all_bools) all_bools)
  all_sigs) all_bools) all_bools) all_bools) all_bools.
Definition rule (i : adm_in) : bool :=
  negb (a_refused i) && a_key_match i && negb (a_self i) &&
  (negb (a_auth_by_ca i) || (a_is_validator i && negb (a_nonval_auth i)) ||
   (a_has_ca i && match a_sig i with SigCurrentCA => true | _ => false end)).
Theorem admission_matrix :
  forallb (fun i => Bool.eqb (match admission i with PeerAdmitted => true | _ => false end) (rule i)) all_inputs = true.
Proof. vm_compute. reflexivity. Qed.
