(* Proofs about Model.Node for C08: what a peer's message can and cannot do to the node. *)
From Coq Require Import List NArith ZArith Bool Lia.
From AnnVerif Require Import Base.Res Base.Bytes Model.VoteSet Model.ValSet Model.Node Proofs.BytesProofs Proofs.VoteSetProofs Proofs.NodeProofs.
Import ListNotations.
Open Scope Z_scope.

(* unchanged except, possibly, for the proposer that Proposer() caches in the validator set *)
Definition same_but_cache (n n' : node) : Prop :=
  n' = n \/ exists vs', n' = set_vals n vs' /\ exists a, proposer (vals n) = Ok (a, vs').

Theorem refused_proposal_changes_nothing p signer n n' o code :
  set_proposal p signer n = Ok (n', o) -> In (OErr code) o -> same_but_cache n n'.
Proof.
  unfold set_proposal. destruct (proposal n); [intro E; injection E as <- <-; intros []|].
  destruct (_ || _); [intro E; injection E as <- <-; intros []|].
  destruct (8 <=? step n); [intro E; injection E as <- <-; intros []|].
  destruct (_ && _); [intro E; injection E as <- <-; intros _; left; reflexivity|].
  destruct ((p_total p <? 0) || _); [intro E; injection E as <- <-; intros _; left; reflexivity|].
  destruct (proposer (vals n)) as [[[a|] vs']| |] eqn:Ep; try discriminate.
  destruct (negb _).
  - intro E; injection E as <- <-. intros _. right. exists vs'. split; [reflexivity|]. exists (Some a). exact Ep.
  - destruct (new_pset _ _) as [ps| |]; try discriminate. intro E. injection E as <- <-. intros [].
Qed.
Theorem ignored_proposal_changes_nothing p signer n n' o :
  set_proposal p signer n = Ok (n', o) ->
  (negb (p_height p =? height n) || negb (p_round p =? round n) = true \/ 8 <= step n \/ proposal n <> None) -> n' = n.
Proof.
  unfold set_proposal. intros E H. destruct (proposal n) as [q|]; [injection E as <- _; reflexivity|].
  destruct (_ || _) eqn:E1; [injection E as <- _; reflexivity|].
  destruct (8 <=? step n) eqn:E2; [injection E as <- _; reflexivity|].
  exfalso. destruct H as [H|[H|H]]; [congruence|lia|apply H; reflexivity].
Qed.

Theorem proposal_never_panics p signer n w :
  set_proposal p signer n = Panic w -> forall a vs', proposer (vals n) <> Ok (Some a, vs').
Proof.
  unfold set_proposal. destruct (proposal n); [discriminate|].
  destruct (_ || _); [discriminate|]. destruct (8 <=? step n); [discriminate|].
  destruct (_ && _); [discriminate|].
  destruct ((p_total p <? 0) || (22020096 <? p_total p)) eqn:Et; [discriminate|].
  destruct (proposer (vals n)) as [[[a|] vs']| |] eqn:Ep; try discriminate; intros E a0 vs0 H; try discriminate.
  destruct (negb _); [discriminate|].
  unfold new_pset in E. apply orb_false_elim in Et as [Et _]. rewrite Et in E. discriminate.
Qed.

Theorem refused_part_changes_nothing c h idx b ok verify n :
  (negb (height n =? h) = true \/ pparts n = None \/
   (exists ps, pparts n = Some ps /\ ((idx <? 0) || (ps_total ps <=? idx) = true \/ existsb (Z.eqb idx) (ps_have ps) = true \/
       verify && negb (Z.eqb (bk_total b) (ps_total ps) && bytes_eqb (bk_phash b) (ps_hash ps)) = true))) ->
  exists o, add_part c h idx b ok verify n = Ok (n, o).
Proof.
  unfold add_part. intros [H|[H|(ps & Hps & H)]].
  - rewrite H. eexists; reflexivity.
  - destruct (negb (height n =? h)); [eexists; reflexivity|]. rewrite H. eexists; reflexivity.
  - destruct (negb (height n =? h)); [eexists; reflexivity|]. rewrite Hps.
    destruct ((idx <? 0) || (ps_total ps <=? idx)); [eexists; reflexivity|].
    destruct (existsb (Z.eqb idx) (ps_have ps)); [eexists; reflexivity|].
    destruct H as [H|[H|H]]; try discriminate. rewrite H. eexists; reflexivity.
Qed.

Theorem foreign_height_vote_changes_nothing c v peer n :
  v_height v + 1 <> height n -> v_height v <> height n -> add_vote_cs c v peer n = Ok (n, [OErr 10]).
Proof.
  intros H1 H2. unfold add_vote_cs.
  destruct (Z.eqb_spec (v_height v + 1) (height n)); [contradiction|].
  destruct (Z.eqb_spec (v_height v) (height n)); [contradiction|]. reflexivity.
Qed.

Definition peers_bounded (h : hvs) : Prop := forall p l, VoteSet.lookup p (hv_peers h) = Some l -> (length l <= 2)%nat.

Theorem catchup_rounds_bounded h v peer h' a c : peers_bounded h -> hv_add_vote h v peer = Ok (h', a, c) -> peers_bounded h'.
Proof.
  intros Hb E. unfold peers_bounded.
  apply hv_add_vote_inv in E as [[-> _]|(h1 & vs & vs' & _ & H1 & _ & _ & ->)]; [exact Hb|]. rewrite (proj2 (proj2 (hv_put_same _ _ _ _))).
  destruct H1 as [->|(h0 & _ & E0 & Hlt & ->)]; [exact Hb|].
  (* a round opened on the peer's behalf: the peer had fewer than two, and gets one more *)
  apply hv_add_round_inv in E0 as (? & ? & _ & _ & _ & ->). cbn. intros p l' Hl. rewrite lookup_update in Hl.
  destruct (bytes_eqb peer p); [|eapply Hb; exact Hl]. injection Hl as <-. rewrite app_length. cbn. lia.
Qed.
