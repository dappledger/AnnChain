(* Admission over histories (Model/AdmitHist.v): whatever validator-set changes and handshakes came
   before, a peer is admitted only if - at the moment of its handshake - it is not refused, announced
   the key it authenticated with, is not the node itself and, where certificate-authority admission
   is on, either is a validator exempt from it or holds a certificate made by a key that is a
   certificate authority in the validator set in force at that moment. *)
From Coq Require Import List NArith Bool.
From AnnVerif Require Import Base.Bytes Proofs.BytesProofs Model.Admission Model.AdmitHist.
Import ListNotations.

Definition admitted_rightly (c : acfg) (vs : list cval) (h : hshake) : Prop :=
  refused c (h_auth h) = false /\ h_announced h = h_auth h /\ h_announced h <> ac_self c /\
  (ac_auth_by_ca c = true ->
     (is_val vs (h_announced h) = true /\ ac_nonval_auth c = false) \/
     (exists s, h_cert h = CertBy s /\ is_ca vs s = true)).

Lemma admit1_sound c vs h : admit1 c vs h = PeerAdmitted -> admitted_rightly c vs h.
Proof.
  unfold admit1, admitted_rightly.
  destruct (refused c (h_auth h)); [discriminate|].
  destruct (ac_auth_by_ca c && negb (ca_check c vs h)) eqn:Eca; [discriminate|].
  destruct (bytes_eqb (h_announced h) (h_auth h)) eqn:Ek; [|discriminate].
  destruct (bytes_eqb (h_announced h) (ac_self c)) eqn:Es; [discriminate|]. intros _.
  split; [reflexivity|]. split; [apply bytes_eqb_eq; exact Ek|]. split.
  - intro H. rewrite H, bytes_eqb_refl in Es. discriminate.
  - intro Ha. rewrite Ha in Eca. apply negb_false_iff in Eca. unfold ca_check in Eca.
    destruct (is_val vs (h_announced h) && negb (ac_nonval_auth c)) eqn:Ev.
    + left. apply andb_true_iff in Ev as [E1 E2]. apply negb_true_iff in E2. auto.
    + right. destruct (h_cert h) as [s| |]; try discriminate. eauto.
Qed.

Lemma arun_in_force c : forall evs vs0 vs h o, In (vs, h, o) (arun c vs0 evs) ->
  exists pre post, evs = pre ++ AHandshake h :: post /\ vs = vals_after vs0 pre /\ o = admit1 c vs h.
Proof.
  induction evs as [|e t IH]; intros vs0 vs h o Hin; [destruct Hin|].
  destruct e as [vs'|h']; cbn [arun] in Hin.
  - destruct (IH _ _ _ _ Hin) as (pre & post & E & Ev & Eo).
    exists (ASetVals vs' :: pre), post. subst t. auto.
  - destruct Hin as [Hin|Hin].
    + injection Hin as <- <- <-. exists [], t. auto.
    + destruct (IH _ _ _ _ Hin) as (pre & post & E & Ev & Eo).
      exists (AHandshake h' :: pre), post. subst t. auto.
Qed.

Theorem history_admission_sound c evs vs0 vs h :
  In (vs, h, PeerAdmitted) (arun c vs0 evs) ->
  (exists pre post, evs = pre ++ AHandshake h :: post /\ vs = vals_after vs0 pre) /\ admitted_rightly c vs h.
Proof.
  intro Hin. destruct (arun_in_force _ _ _ _ _ _ Hin) as (pre & post & E & Ev & Eo).
  split; [exists pre, post; auto|]. apply admit1_sound. symmetry. exact Eo.
Qed.

Theorem history_is_forgotten c pre evs vs0 :
  arun c vs0 (pre ++ evs) = arun c vs0 pre ++ arun c (vals_after vs0 pre) evs.
Proof.
  revert vs0. induction pre as [|e t IH]; intro vs0; [reflexivity|].
  destruct e as [vs'|h']; cbn [arun vals_after app]; rewrite IH; reflexivity.
Qed.
