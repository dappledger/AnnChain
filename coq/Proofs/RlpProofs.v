(* Proofs about Model.Rlp: decoding an encoding gives the item back (for every tail), and the
   encoding is the only byte string that decodes to an item (canonical uniqueness).  Both go
   through the header: kind offset plus payload size, in the short or the long form. *)
From Coq Require Import List NArith Lia Bool Arith ZifyN ZifyNat ZifyBool.
From AnnVerif Require Import Base.Bytes Model.Rlp Proofs.BytesProofs.
Import ListNotations.
Open Scope N_scope.

Lemma item_ind2 (P : item -> Prop) :
  (forall b, P (IStr b)) -> (forall l, Forall P l -> P (IList l)) -> forall it, P it.
Proof.
  intros H1 H2. fix IH 1. intros [b|l]; [apply H1|]. apply H2.
  induction l as [|x l IHl]; constructor; [apply IH|exact IHl].
Qed.

Definition wfb (b : bytes) : Prop := Forall (fun x => x < 256) b.

Lemma wfb_split n l : wfb l -> wfb (firstn n l) /\ wfb (skipn n l).
Proof. intro H. apply Forall_app. rewrite firstn_skipn. exact H. Qed.

Lemma be_bytes_wf k v : wfb (be_bytes k v).
Proof.
  revert v; induction k as [|k IH]; intro v; cbn [be_bytes]; [constructor|].
  apply Forall_app. split; [apply IH|]. constructor; [apply N.mod_lt; lia|constructor].
Qed.

Lemma be_bytes_head k v : be_bytes (S k) v = (v / 256 ^ N.of_nat k) mod 256 :: be_bytes k v.
Proof.
  revert v; induction k as [|k IH]; intro v.
  - cbn. rewrite N.div_1_r. reflexivity.
  - change (be_bytes (S (S k)) v) with (be_bytes (S k) (v / 256) ++ [v mod 256]). rewrite IH.
    cbn [app]. f_equal.
    rewrite Nat2N.inj_succ, N.pow_succ_r', N.div_div by (try apply N.pow_nonzero; lia). reflexivity.
Qed.

Lemma be_min_length v : length (be_min v) = usize v.
Proof. apply be_bytes_length. Qed.

Lemma be_min_val v : be_val (be_min v) = v.
Proof. unfold be_min. rewrite be_val_be_bytes. apply N.mod_small, usize_bound. Qed.

(* the head is the top digit of v in base 256 *)
Lemma be_min_head v : 0 < v -> exists b0 t, be_min v = b0 :: t /\ b0 <> 0.
Proof.
  intro Hv. unfold be_min. destruct (usize_range v Hv) as [Hlo Hub]. pose proof (usize_pos v Hv) as Hp.
  destruct (usize v) as [|k]; [lia|]. rewrite be_bytes_head. eexists. eexists. split; [reflexivity|].
  replace (S k - 1)%nat with k in Hlo by lia. rewrite Nat2N.inj_succ, N.pow_succ_r' in Hub.
  assert (Hk : 256 ^ N.of_nat k <> 0) by (apply N.pow_nonzero; lia).
  rewrite N.mod_small by (apply N.div_lt_upper_bound; lia).
  intro E. apply N.div_small_iff in E; lia.
Qed.

Lemma be_val_aux_bound l : forall acc, wfb l -> be_val_aux acc l < (acc + 1) * 256 ^ N.of_nat (length l).
Proof.
  induction l as [|x l IH]; intros acc Hw; cbn [be_val_aux length]; [cbn; lia|].
  inversion Hw as [|? ? Hx Hl]; subst. specialize (IH (acc * 256 + x) Hl).
  rewrite Nat2N.inj_succ, N.pow_succ_r'. nia.
Qed.
Lemma be_val_aux_lower l : forall acc, acc * 256 ^ N.of_nat (length l) <= be_val_aux acc l.
Proof.
  induction l as [|x l IH]; intros acc; cbn [be_val_aux length]; [cbn; lia|].
  specialize (IH (acc * 256 + x)). rewrite Nat2N.inj_succ, N.pow_succ_r'. nia.
Qed.

Lemma be_bytes_be_val l : wfb l -> be_bytes (length l) (be_val l) = l.
Proof.
  unfold be_val. induction l as [|x l IH] using rev_ind; intro Hw; [reflexivity|].
  apply Forall_app in Hw as [Hl Hx]. inversion Hx as [|? ? Hx' _]; subst.
  rewrite app_length. cbn [length]. rewrite Nat.add_1_r. cbn [be_bytes].
  rewrite be_val_aux_app.
  assert (Hd : (be_val_aux 0 l * 256 + x) / 256 = be_val_aux 0 l).
  { rewrite N.div_add_l by lia. rewrite (N.div_small x 256) by exact Hx'. lia. }
  assert (Hm : (be_val_aux 0 l * 256 + x) mod 256 = x).
  { rewrite N.add_comm, N.mod_add by lia. apply N.mod_small. exact Hx'. }
  rewrite Hd, Hm.
  rewrite IH by exact Hl. reflexivity.
Qed.

Lemma usize_unique v k : 0 < v -> 256 ^ N.of_nat (k - 1) <= v -> v < 256 ^ N.of_nat k -> usize v = k.
Proof.
  intros Hv Hlo Hhi. destruct (usize_range v Hv) as [L B]. pose proof (usize_pos v Hv) as P.
  destruct (Nat.lt_trichotomy (usize v) k) as [H|[H|H]]; [exfalso|exact H|exfalso].
  - assert (256 ^ N.of_nat (usize v) <= 256 ^ N.of_nat (k - 1)) by (apply N.pow_le_mono_r; lia). lia.
  - assert (256 ^ N.of_nat k <= 256 ^ N.of_nat (usize v - 1)) by (apply N.pow_le_mono_r; lia). lia.
Qed.

Lemma be_min_be_val b0 t : wfb (b0 :: t) -> b0 <> 0 -> be_min (be_val (b0 :: t)) = b0 :: t.
Proof.
  intros Hw H0. unfold be_min.
  replace (usize (be_val (b0 :: t))) with (length (b0 :: t)); [apply be_bytes_be_val; exact Hw|].
  pose proof (be_val_aux_lower t (0 * 256 + b0)) as Hlo. pose proof (be_val_aux_bound (b0 :: t) 0 Hw) as Hhi.
  symmetry. unfold be_val. cbn [be_val_aux length] in *. apply usize_unique; [nia| |lia].
  replace (S (length t) - 1)%nat with (length t) by lia. nia.
Qed.

(* the items a Go program can hold *)
Definition small_len (n : nat) : Prop := N.of_nat n < 18446744073709551616.

Fixpoint wf_item (it : item) : Prop :=
  match it with
  | IStr b => wfb b /\ small_len (length b)
  | IList l => small_len (length (concat (map enc l))) /\ (fix all (l : list item) := match l with [] => True | x :: t => wf_item x /\ all t end) l
  end.

Lemma wf_list l : wf_item (IList l) -> Forall wf_item l.
Proof. intros [_ H]. induction l as [|x t IH]; constructor; [apply H|apply IH; apply H]. Qed.

Lemma enc_len_short off n : (n < 56)%nat -> enc_len off n = [off + N.of_nat n].
Proof. intro H. unfold enc_len. replace (Nat.ltb n 56) with true by lia. reflexivity. Qed.
Lemma enc_len_long off n : (56 <= n)%nat ->
  enc_len off n = (off + 55 + N.of_nat (length (be_min (N.of_nat n)))) :: be_min (N.of_nat n).
Proof. intro H. unfold enc_len. replace (Nat.ltb n 56) with false by lia. reflexivity. Qed.

Lemma be_min_len_range n : (1 <= n)%nat -> small_len n -> (1 <= length (be_min (N.of_nat n)) <= 8)%nat.
Proof. intros Hn Hs. rewrite be_min_length. split; [apply usize_pos; lia|apply usize_le8; exact Hs]. Qed.

Lemma enc_len_first off n : (off = 128 \/ off = 192) -> small_len n ->
  exists h t, enc_len off n = h :: t /\
    ((n < 56)%nat /\ h = off + N.of_nat n /\ t = []) \/
    ((56 <= n)%nat /\ h = off + 55 + N.of_nat (length (be_min (N.of_nat n))) /\ t = be_min (N.of_nat n) /\
     (1 <= length (be_min (N.of_nat n)) <= 8)%nat).
Proof.
  intros _ Hs. destruct (Nat.ltb_spec n 56) as [Hlt|Hge]; eexists; eexists.
  - left. rewrite enc_len_short by exact Hlt. auto.
  - right. split; [exact Hge|]. split; [reflexivity|]. split; [reflexivity|]. apply be_min_len_range; [lia|exact Hs].
Qed.

Lemma read_size_enc n (rest : bytes) : (56 <= n)%nat -> (n <= length rest)%nat ->
  read_size (length (be_min (N.of_nat n))) (be_min (N.of_nat n) ++ rest) = Some (n, rest).
Proof.
  intros Hn Hfit. destruct (be_min_head (N.of_nat n) ltac:(lia)) as (b0 & t & Eb & Hb0).
  unfold read_size. rewrite app_length, firstn_exact, skipn_exact, be_min_val by reflexivity.
  replace (Nat.ltb _ _) with false by lia. rewrite Eb at 1.
  replace (b0 =? 0) with false by lia. rewrite andb_false_r.
  replace (N.of_nat n <? 56) with false by lia. replace (N.of_nat (length rest) <? N.of_nat n) with false by lia.
  rewrite Nat2N.id. reflexivity.
Qed.

Lemma read_size_canonical ll rest n rest' : wfb rest -> read_size ll rest = Some (n, rest') ->
  exists lb, rest = lb ++ rest' /\ length lb = ll /\ be_min (N.of_nat n) = lb /\ (56 <= n)%nat.
Proof.
  intros Hw. unfold read_size. destruct (Nat.ltb_spec (length rest) ll) as [|Hlen]; [discriminate|].
  destruct (wfb_split ll rest Hw) as [Hwf _]. pose proof (firstn_length_le rest Hlen) as Hfl.
  pose proof (firstn_skipn ll rest) as Hsplit.
  destruct (firstn ll rest) as [|b0 t]; [discriminate|].
  destruct (Nat.ltb 1 ll && (b0 =? 0)) eqn:Ez; [discriminate|].
  destruct (N.ltb_spec (be_val (b0 :: t)) 56) as [|Hv]; [discriminate|].
  destruct (_ <? _); [discriminate|]. intro E. injection E as <- <-.
  exists (b0 :: t). rewrite N2Nat.id. repeat split; [symmetry; exact Hsplit|exact Hfl| |lia].
  apply be_min_be_val; [exact Hwf|]. intros ->.
  (* a zero first digit: either it is the only one and the value is below 56, or it was refused *)
  destruct t; [cbn in Hv; lia|]. cbn [length] in Hfl. rewrite <- Hfl in Ez. discriminate Ez.
Qed.

Definition hdr (off b0 : N) (rest : bytes) : option (nat * bytes) :=
  if b0 <? off + 56 then Some (N.to_nat (b0 - off), rest) else read_size (N.to_nat (b0 - (off + 55))) rest.

Lemma hdr_short off b0 r : b0 < off + 56 -> hdr off b0 r = Some (N.to_nat (b0 - off), r).
Proof. intro H. unfold hdr. replace (b0 <? off + 56) with true by lia. reflexivity. Qed.
Lemma hdr_long off b0 r : off + 56 <= b0 -> hdr off b0 r = read_size (N.to_nat (b0 - (off + 55))) r.
Proof. intro H. unfold hdr. replace (b0 <? off + 56) with false by lia. reflexivity. Qed.

Lemma hdr_enc off n rest : small_len n -> (n <= length rest)%nat ->
  exists h t, enc_len off n ++ rest = h :: t /\ off <= h < off + 64 /\ hdr off h t = Some (n, rest).
Proof.
  intros Hs Hfit. destruct (Nat.ltb_spec n 56) as [Hlt|Hge].
  - rewrite enc_len_short by exact Hlt. eexists. eexists. split; [reflexivity|]. split; [lia|].
    rewrite hdr_short by lia. f_equal. f_equal. lia.
  - rewrite enc_len_long by exact Hge. pose proof (be_min_len_range n ltac:(lia) Hs) as Hll.
    eexists. eexists. split; [reflexivity|]. split; [lia|]. rewrite hdr_long by lia.
    replace (N.to_nat _) with (length (be_min (N.of_nat n))) by lia.
    apply read_size_enc; assumption.
Qed.

Lemma hdr_canonical off b0 r n rest' : wfb r -> off <= b0 -> hdr off b0 r = Some (n, rest') ->
  b0 :: r = enc_len off n ++ rest' /\ wfb rest' /\ (off + 56 <= b0 -> (56 <= n)%nat).
Proof.
  intros Hr Hoff. destruct (N.ltb_spec b0 (off + 56)) as [Hlt|Hge].
  - rewrite hdr_short by exact Hlt. intro E. injection E as <- <-. rewrite enc_len_short by lia.
    split; [cbn [List.app]; f_equal; lia|]. split; [exact Hr|lia].
  - rewrite hdr_long by exact Hge. intro E.
    destruct (read_size_canonical _ _ _ _ Hr E) as (lb & -> & Hll & <- & Hn). rewrite enc_len_long by exact Hn.
    apply Forall_app in Hr as [_ Hr]. split; [cbn [List.app]; f_equal; lia|]. auto.
Qed.

Lemma enc_str_spec s : (forall x, s = [x] -> 128 <= x) -> enc_str s = enc_len 128 (length s) ++ s.
Proof.
  destruct s as [|x [|y t]]; intro H; [reflexivity| |reflexivity].
  unfold enc_str. replace (x <? 128) with false by (specialize (H x eq_refl); lia). reflexivity.
Qed.

Lemma enc_len_nonempty off n : enc_len off n <> [].
Proof. unfold enc_len. destruct (Nat.ltb n 56); discriminate. Qed.

Lemma enc_nonempty it : enc it <> [].
Proof.
  destruct it as [[|x [|y t]]|l]; cbn [enc enc_str]; try (destruct (x <? 128); discriminate).
  all: intro E; apply app_eq_nil in E as [E _]; exact (enc_len_nonempty _ _ E).
Qed.

Lemma concat_enc_length l : (length l <= length (concat (map enc l)))%nat.
Proof.
  induction l as [|x t IH]; cbn [map concat length]; [lia|]. rewrite app_length.
  pose proof (enc_nonempty x). destruct (enc x); [congruence|cbn [length]; lia].
Qed.

Lemma dec_items_enc (decf : bytes -> option (item * bytes)) l :
  Forall (fun x => forall rest, decf (enc x ++ rest) = Some (x, rest)) l ->
  forall k, (length l <= k)%nat -> dec_items decf k (concat (map enc l)) = Some l.
Proof.
  induction 1 as [|x t Hx Ht IH]; intros k Hk; cbn [map concat]; [destruct k; reflexivity|].
  pose proof (enc_nonempty x) as Hne.
  destruct (enc x ++ concat (map enc t)) as [|c r] eqn:E; [apply app_eq_nil in E as [E _]; congruence|].
  destruct k as [|k]; [cbn in Hk; lia|]. cbn [dec_items]. rewrite <- E, Hx, IH by (cbn in Hk; lia). reflexivity.
Qed.

(* the fuel dec_f needs: the nesting of lists *)
Fixpoint depth (it : item) : nat :=
  match it with
  | IStr _ => O
  | IList l => S (fold_right (fun x a => Nat.max (depth x) a) O l)
  end.

Lemma depth_in x l : In x l -> (depth x < depth (IList l))%nat.
Proof.
  cbn [depth]. induction l as [|y t IH]; [contradiction|]. cbn [fold_right].
  intros [->|Hx]; [lia|]. specialize (IH Hx). lia.
Qed.

Lemma depth_le_length it : (depth it <= length (enc it))%nat.
Proof.
  induction it as [b|l IH] using item_ind2; cbn [depth enc]; [lia|]. rewrite app_length.
  pose proof (enc_len_nonempty 192 (length (concat (map enc l)))) as Hh.
  destruct (enc_len _ _); [congruence|]. cbn [length].
  induction IH as [|x t Hx Ht IHt]; cbn [fold_right map concat length]; [lia|]. rewrite app_length. lia.
Qed.

Theorem dec_enc : forall it, wf_item it -> forall rest fuel, (depth it < fuel)%nat ->
  dec_f fuel (enc it ++ rest) = Some (it, rest).
Proof.
  induction it as [b|l IHl] using item_ind2; intros Hwf rest fuel Hf; (destruct fuel as [|f]; [lia|]).
  - destruct Hwf as [Hb Hs]. cbn [enc].
    assert (Hgen : (forall x, b = [x] -> 128 <= x) -> dec_f (S f) (enc_str b ++ rest) = Some (IStr b, rest)).
    { intro Hx. rewrite enc_str_spec by exact Hx.
      destruct (hdr_enc 128 (length b) (b ++ rest) Hs ltac:(rewrite app_length; lia)) as (h & t & Eh & Hh & Hd).
      rewrite <- app_assoc, Eh. cbn [dec_f]. replace (h <? 128) with false by lia.
      destruct (N.ltb_spec h 184) as [Hsh|Hlg].
      - rewrite hdr_short in Hd by exact Hsh. injection Hd as -> ->.
        rewrite app_length, firstn_exact, skipn_exact by reflexivity. replace (Nat.ltb _ _) with false by lia.
        destruct b as [|x [|]]; try reflexivity. replace (x <? 128) with false by (specialize (Hx x eq_refl); lia). reflexivity.
      - rewrite hdr_long in Hd by exact Hlg. replace (h <? 192) with true by lia.
        change (h - 183) with (h - (128 + 55)). rewrite Hd.
        rewrite app_length, firstn_exact, skipn_exact by reflexivity. replace (Nat.ltb _ _) with false by lia. reflexivity. }
    destruct b as [|x [|y t]]; [apply Hgen; discriminate| |apply Hgen; discriminate].
    destruct (N.ltb_spec x 128) as [Hlt|Hge]; [|apply Hgen; intros ? [= <-]; exact Hge].
    (* a single byte below 128 is its own encoding *)
    cbn [enc_str]. replace (x <? 128) with true by lia. cbn [List.app dec_f]. replace (x <? 128) with true by lia. reflexivity.
  - pose proof (wf_list l Hwf) as Hall. destruct Hwf as [Hs _]. cbn [enc]. set (p := concat (map enc l)) in *.
    destruct (hdr_enc 192 (length p) (p ++ rest) Hs ltac:(rewrite app_length; lia)) as (h & t & Eh & Hh & Hd).
    rewrite <- app_assoc, Eh. cbn [dec_f].
    replace (h <? 128) with false by lia. replace (h <? 184) with false by lia. replace (h <? 192) with false by lia.
    change (if h <? 248 then _ else _) with (hdr 192 h t). rewrite Hd.
    rewrite app_length, firstn_exact, skipn_exact by reflexivity. replace (Nat.ltb _ _) with false by lia.
    unfold p at 2. rewrite (dec_items_enc (dec_f f) l); [reflexivity| |apply concat_enc_length].
    (* every element decodes with the remaining fuel *)
    rewrite Forall_forall in *. intros x Hx rest'. pose proof (depth_in x l Hx).
    apply IHl; [exact Hx|apply Hall; exact Hx|lia].
Qed.

(* DecodeBytes (EncodeToBytes it) = it *)
Theorem decode_encode it : wf_item it -> decode (enc it) = Some it.
Proof.
  intro Hwf. unfold decode. rewrite <- (app_nil_r (enc it)) at 2.
  rewrite dec_enc; [reflexivity|exact Hwf|]. pose proof (depth_le_length it). lia.
Qed.

Lemma dec_items_canonical (decf : bytes -> option (item * bytes)) :
  (forall p it p', wfb p -> decf p = Some (it, p') -> p = enc it ++ p') ->
  forall k p l, wfb p -> dec_items decf k p = Some l -> p = concat (map enc l).
Proof.
  intros Hd. induction k as [|k IH]; intros p l Hw; cbn [dec_items].
  - destruct p; [intro E; injection E as <-; reflexivity|discriminate].
  - destruct p as [|c r]; [intro E; injection E as <-; reflexivity|].
    destruct (decf (c :: r)) as [[it p']|] eqn:E1; [|discriminate].
    destruct (dec_items decf k p') as [l'|] eqn:E2; [|discriminate]. intro E. injection E as <-.
    pose proof (Hd _ _ _ Hw E1) as Hp. rewrite Hp. cbn [map concat]. f_equal.
    apply IH; [|exact E2]. rewrite Hp in Hw. apply Forall_app in Hw. apply Hw.
Qed.

Lemma payload_tail off b0 r n rest' : b0 :: r = enc_len off n ++ rest' -> (n <= length rest')%nat ->
  b0 :: r = (enc_len off (length (firstn n rest')) ++ firstn n rest') ++ skipn n rest'.
Proof. intros E Hl. rewrite firstn_length_le, <- app_assoc, firstn_skipn by exact Hl. exact E. Qed.

Theorem dec_canonical : forall fuel bs it rest, wfb bs -> dec_f fuel bs = Some (it, rest) -> bs = enc it ++ rest.
Proof.
  induction fuel as [|f IH]; intros bs it rest Hw; [discriminate|]. cbn [dec_f].
  destruct bs as [|b0 r]; [discriminate|]. inversion Hw as [|? ? Hb0 Hr]; subst.
  destruct (N.ltb_spec b0 128) as [H1|H1].
  { intro E. injection E as <- <-. cbn [enc enc_str]. replace (b0 <? 128) with true by lia. reflexivity. }
  destruct (N.ltb_spec b0 184) as [H2|H2].
  { (* short string; a single byte below 128 is refused *)
    destruct (hdr_canonical 128 b0 r _ _ Hr H1 (hdr_short 128 b0 r ltac:(lia))) as (E & _ & _).
    destruct (Nat.ltb_spec (length r) (N.to_nat (b0 - 128))) as [|Hlen]; [discriminate|]. intro D.
    pose proof (payload_tail _ _ _ _ _ E Hlen) as T.
    destruct (firstn _ r) as [|x [|y t]]; [injection D as <- <-; exact T| |injection D as <- <-; exact T].
    destruct (N.ltb_spec x 128); [discriminate|]. injection D as <- <-.
    cbn [enc]. rewrite enc_str_spec; [exact T|]. intros ? [= <-]. assumption. }
  destruct (N.ltb_spec b0 192) as [H3|H3].
  { (* long string *)
    change (b0 - 183) with (b0 - (128 + 55)). rewrite <- (hdr_long 128) by lia.
    destruct (hdr 128 b0 r) as [[n rest']|] eqn:Eh; [|discriminate].
    apply (hdr_canonical _ _ _ _ _ Hr H1) in Eh as (E & _ & Hn). specialize (Hn ltac:(lia)).
    destruct (Nat.ltb_spec (length rest') n) as [|Hlen]; [discriminate|]. intro D. injection D as <- <-.
    cbn [enc]. rewrite enc_str_spec; [exact (payload_tail _ _ _ _ _ E Hlen)|].
    intros x Ex. apply (f_equal (@length _)) in Ex. rewrite firstn_length_le in Ex by exact Hlen. cbn [length] in Ex. lia. }
  (* lists *)
  change (if b0 <? 248 then _ else _) with (hdr 192 b0 r).
  destruct (hdr 192 b0 r) as [[n rest']|] eqn:Eh; [|discriminate].
  apply (hdr_canonical _ _ _ _ _ Hr H3) in Eh as (E & Hrw & _).
  destruct (Nat.ltb_spec (length rest') n) as [|Hlen]; [discriminate|].
  destruct (dec_items (dec_f f) _ (firstn n rest')) as [l|] eqn:Ei; [|discriminate]. intro D. injection D as <- <-.
  apply (dec_items_canonical (dec_f f) IH) in Ei; [|apply wfb_split; exact Hrw].
  cbn [enc]. rewrite <- Ei. exact (payload_tail _ _ _ _ _ E Hlen).
Qed.

(* DecodeBytes accepts only canonical encodings *)
Theorem decode_canonical bs it : wfb bs -> decode bs = Some it -> bs = enc it.
Proof.
  intros Hw. unfold decode. destruct (dec_f (S (length bs)) bs) as [[it' rest]|] eqn:E; [|discriminate].
  destruct rest; [|discriminate]. intro H. injection H as <-.
  rewrite (dec_canonical _ _ _ _ Hw E). apply app_nil_r.
Qed.
