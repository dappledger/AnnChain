(* Proofs about Model/Sync.v: whatever peers send, in whatever order, and whenever the sync loop
   runs, the applied blocks are exactly heights 1, 2, .. in order and each of them is justified by
   a commit that VerifyCommit accepts under the validator set - hence (C15) by validly signed
   precommits for exactly that block from more than two thirds of the voting power. *)
From Coq Require Import List NArith ZArith Bool Lia.
From AnnVerif Require Import Base.Res Model.VoteSet Model.Sync Proofs.PowerSum Proofs.VoteSetProofs.
Import ListNotations.
Open Scope Z_scope.

Fixpoint store_ok (vals : list validator) (st : list sblock) (h : Z) : Prop :=
  match st with
  | [] => h = 1
  | b :: t => sb_height b = h - 1 /\ (exists c, verify_commit vals (sb_id b) (h - 1) c = Ok tt) /\
              store_ok vals t (h - 1)
  end.

Definition pool_ok (p : list (Z * (N * sblock))) : Prop :=
  forall k x, In (k, x) p -> sb_height (snd x) = k.

Definition inv (vals : list validator) (s : sync) : Prop :=
  s_vals s = vals /\ pool_ok (s_pool s) /\ store_ok vals (s_store s) (s_height s).

Definition inv2 (vals : list validator) (t : sync2) : Prop :=
  inv vals (s2_s t) /\
  match s2_checked t with
  | None => True
  | Some first => sb_height first = s_height (s2_s t) /\
                  exists c, verify_commit vals (sb_id first) (s_height (s2_s t)) c = Ok tt
  end.

Lemma pool_get_in p h x : pool_get p h = Some x -> In (h, x) p.
Proof.
  induction p as [|[k y] t IH]; cbn [pool_get]; [discriminate|].
  destruct (k =? h) eqn:E.
  - intros H. inversion H; subst. apply Z.eqb_eq in E. subst. now left.
  - intros H. right. now apply IH.
Qed.

Lemma pool_ok_filter p f : pool_ok p -> pool_ok (filter f p).
Proof. intros H k x Hin. apply filter_In in Hin. destruct Hin as [Hin _]. exact (H k x Hin). Qed.

Lemma store_ok_push vals st h b :
  store_ok vals st h -> sb_height b = h -> (exists c, verify_commit vals (sb_id b) h c = Ok tt) ->
  store_ok vals (b :: st) (h + 1).
Proof. intros Hs Hh Hc. cbn [store_ok]. replace (h + 1 - 1) with h by lia. auto. Qed.

Lemma resp_inv vals s e : e <> ETick -> inv vals s ->
  inv vals (sync_step s e) /\ s_height (sync_step s e) = s_height s.
Proof.
  intros He Hi. pose proof Hi as (Ev & Hp & Hs).
  destruct e as [peer b|peer|]; cbn [sync_step]; [| |contradiction (He eq_refl)].
  - destruct (sb_height b <? s_height s); [now split|]. destruct (pool_get _ _); [now split|].
    split; [|reflexivity]. split; [exact Ev|]. split; [|exact Hs].
    intros k x [H|H]; [inversion H; reflexivity | exact (Hp k x H)].
  - split; [|reflexivity]. split; [exact Ev|]. split; [now apply pool_ok_filter | exact Hs].
Qed.

Lemma drop_both_inv vals s p1 p2 : inv vals s ->
  inv vals (mkSync (s_height s) (s_vals s) (s_store s) (pool_drop_peer (pool_drop_peer (s_pool s) p1) p2)).
Proof.
  intros (Ev & Hp & Hs). split; [exact Ev|]. split; [now apply pool_ok_filter, pool_ok_filter | exact Hs].
Qed.

Lemma resp_inv2 vals t e : e <> ETick -> inv2 vals t ->
  inv2 vals (mkS2 (sync_step (s2_s t) e) (s2_checked t)).
Proof.
  intros He [Hi Hc]. destruct (resp_inv vals (s2_s t) e He Hi) as [Hi' Eh].
  split; [exact Hi'|]. cbn [s2_s s2_checked]. rewrite Eh. exact Hc.
Qed.

Lemma step2_inv vals t e : inv2 vals t -> inv2 vals (sync2_step t e).
Proof.
  intros H. pose proof H as [Hi Hc]. pose proof Hi as (Ev & Hp & Hs).
  destruct e as [peer b|peer| |]; cbn [sync2_step].
  - now apply resp_inv2.
  - now apply resp_inv2.
  - destruct (s2_checked t); [exact H|].
    destruct (pool_get (s_pool (s2_s t)) (s_height (s2_s t))) as [[p1 first]|] eqn:G1; [|exact H].
    destruct (pool_get (s_pool (s2_s t)) (s_height (s2_s t) + 1)) as [[p2 second]|]; [|exact H].
    destruct (verify_commit (s_vals (s2_s t)) (sb_id first) (s_height (s2_s t)) (sb_last second)) as [[]|e|w] eqn:V.
    + split; [exact Hi|]. rewrite Ev in V. split; [|now exists (sb_last second)].
      apply pool_get_in in G1. exact (Hp _ _ G1).
    + split; [now apply drop_both_inv | exact I].
    + split; [now apply drop_both_inv | exact I].
  - destruct (s2_checked t) as [first|]; [|exact H]. destruct Hc as [Hh Hv].
    split; [|exact I]. split; [exact Ev|]. split; [now apply pool_ok_filter | now apply store_ok_push].
Qed.

Lemma run2_inv vals es : forall t, inv2 vals t -> inv2 vals (sync2_run t es).
Proof. induction es as [|e r IH]; intros t H; [exact H|]. apply IH, step2_inv, H. Qed.

Theorem sync2_sound vals es :
  let s := s2_s (sync2_run (sync2_0 vals) es) in
  store_ok vals (s_store s) (s_height s).
Proof.
  cbv zeta. assert (H : inv2 vals (sync2_0 vals)) by (repeat split; intros k x []).
  apply (run2_inv vals es) in H. apply H.
Qed.

(* the loop with check and pop in one step is the interleaving in which every check is followed
   at once by its pop *)
Definition atomic (e : sev) : list sev2 :=
  match e with
  | EResp p b => [E2Resp p b]
  | ERemove p => [E2Remove p]
  | ETick => [E2Check; E2Pop]
  end.

Lemma atomic_step s e : sync2_run (mkS2 s None) (atomic e) = mkS2 (sync_step s e) None.
Proof.
  destruct e as [p b|p|]; [reflexivity | reflexivity|].
  cbn [atomic sync2_run fold_left sync2_step s2_s s2_checked sync_step].
  destruct (pool_get (s_pool s) (s_height s)) as [[p1 first]|]; [|reflexivity].
  destruct (pool_get (s_pool s) (s_height s + 1)) as [[p2 second]|]; [|reflexivity].
  now destruct (verify_commit (s_vals s) (sb_id first) (s_height s) (sb_last second)) as [[]|e|w].
Qed.

Lemma atomic_run es : forall s, sync2_run (mkS2 s None) (flat_map atomic es) = mkS2 (sync_run s es) None.
Proof.
  induction es as [|e r IH]; intros s; [reflexivity|].
  cbn [flat_map]. unfold sync2_run. rewrite fold_left_app. fold (sync2_run (mkS2 s None) (atomic e)).
  rewrite atomic_step. apply IH.
Qed.

Theorem sync_sound vals es :
  let s := sync_run (sync0 vals) es in
  store_ok vals (s_store s) (s_height s).
Proof.
  cbv zeta. pose proof (sync2_sound vals (flat_map atomic es)) as H. cbv zeta in H.
  unfold sync2_0 in H. rewrite atomic_run in H. exact H.
Qed.

Lemma store_ok_nth vals st h : store_ok vals st h ->
  forall i b, nth_error st i = Some b ->
  sb_height b = h - 1 - Z.of_nat i /\ exists c, verify_commit vals (sb_id b) (sb_height b) c = Ok tt.
Proof.
  revert h. induction st as [|x t IH]; intros h H i b Hi; [destruct i; discriminate|].
  destruct H as (Hh & Hc & Ht). destruct i as [|i]; cbn in Hi.
  - inversion Hi; subst. split; [lia|]. rewrite Hh. exact Hc.
  - destruct (IH _ Ht i b Hi) as [E C]. split; [lia | exact C].
Qed.

Lemma applied_justified vals es b : In b (s_store (sync_run (sync0 vals) es)) ->
  exists c, verify_commit vals (sb_id b) (sb_height b) c = Ok tt.
Proof.
  intro Hin. apply In_nth_error in Hin. destruct Hin as [i Hi].
  exact (proj2 (store_ok_nth _ _ _ (sync_sound vals es) i b Hi)).
Qed.

Theorem applied_block_has_two_thirds vals es b :
  bounded vals -> In b (s_store (sync_run (sync0 vals) es)) ->
  exists c, length (c_pre c) = length vals /\
            two_thirds vals <
            pow_of vals (fun i => match nth i (c_pre c) None with
                                  | Some v => good_full (sb_id b) (sb_height b) (commit_round c) v
                                  | None => false end).
Proof.
  intros Hb Hin. destruct (applied_justified _ _ _ Hin) as [c Hc]. exists c. now apply verify_commit_sound.
Qed.

(* the hypothesis is agreement (C01): at each height at most one block id gathers such a commit *)
Theorem applied_chain_is_canonical vals es (canon : Z -> block_id) :
  (forall h id c, verify_commit vals id h c = Ok tt -> id = canon h) ->
  forall b, In b (s_store (sync_run (sync0 vals) es)) -> sb_id b = canon (sb_height b).
Proof.
  intros Hu b Hin. destruct (applied_justified _ _ _ Hin) as [c Hc]. exact (Hu _ _ _ Hc).
Qed.

Lemma tick_needs_commit s :
  (forall p1 f p2 sd, pool_get (s_pool s) (s_height s) = Some (p1, f) ->
                      pool_get (s_pool s) (s_height s + 1) = Some (p2, sd) ->
                      verify_commit (s_vals s) (sb_id f) (s_height s) (sb_last sd) <> Ok tt) ->
  s_height (sync_step s ETick) = s_height s /\ s_store (sync_step s ETick) = s_store s.
Proof.
  intros H. cbn [sync_step].
  destruct (pool_get (s_pool s) (s_height s)) as [[p1 f]|] eqn:G1; [|auto].
  destruct (pool_get (s_pool s) (s_height s + 1)) as [[p2 sd]|] eqn:G2; [|auto].
  specialize (H p1 f p2 sd eq_refl eq_refl).
  destruct (verify_commit (s_vals s) (sb_id f) (s_height s) (sb_last sd)) as [[]|e|w]; [contradiction| |]; auto.
Qed.

Theorem commit_label_irrelevant vals b h l1 l2 pre :
  verify_commit vals b h (mkCommit l1 pre) = verify_commit vals b h (mkCommit l2 pre).
Proof. reflexivity. Qed.
