(* Proofs about Model.PartSet (gemmill/types/part_set.go), for C17: a receiver that holds the
   genuine header accepts exactly the missing genuine parts, a rejected part leaves the set
   unchanged, and once every genuine part has arrived - in any order, among any junk - the
   receiver's set is the sender's and reads back the original bytes. *)
From Coq Require Import List NArith ZArith Lia Bool.
From AnnVerif Require Import Base.Res Base.Bytes Model.Merkle Model.PartSet Proofs.MerkleProofs.
Import ListNotations.

Lemma chunks_f_concat p : (0 < p)%nat -> forall fuel data, (length data <= fuel)%nat ->
  concat (chunks_f fuel p data) = data.
Proof.
  intros Hp. induction fuel as [|f IH]; intros data Hl.
  - destruct data; [reflexivity|simpl in Hl; lia].
  - destruct data as [|x d]; [reflexivity|].
    cbn [chunks_f]. cbn [concat]. rewrite IH.
    + apply firstn_skipn.
    + rewrite skipn_length. cbn [length] in *. lia.
Qed.

Lemma chunks_concat p data : (0 < p)%nat -> concat (chunks p data) = data.
Proof. intro Hp. apply chunks_f_concat; auto. Qed.

Lemma chunks_nonempty p data : data <> [] -> chunks p data <> [].
Proof. unfold chunks. destruct data; [congruence|]. simpl. discriminate. Qed.

Lemma set_nth_length {A} (l : list A) i x : length (set_nth l i x) = length l.
Proof. revert i; induction l as [|h t IH]; intros [|i]; simpl; auto. Qed.

Lemma nth_set_nth_eq {A} (l : list A) i x d : (i < length l)%nat -> nth i (set_nth l i x) d = x.
Proof. revert i; induction l as [|h t IH]; intros [|i] H; simpl in *; try lia; auto. apply IH; lia. Qed.

Lemma nth_set_nth_neq {A} (l : list A) i j x d : i <> j -> nth j (set_nth l i x) d = nth j l d.
Proof. revert i j; induction l as [|h t IH]; intros [|i] [|j] H; simpl; auto; try lia. Qed.

Fixpoint count_some {A} (l : list (option A)) : nat :=
  match l with [] => O | Some _ :: t => S (count_some t) | None :: t => count_some t end.

Lemma count_some_set_nth {A} (l : list (option A)) i x :
  nth i l None = None -> (i < length l)%nat -> count_some (set_nth l i (Some x)) = S (count_some l).
Proof.
  revert i; induction l as [|h t IH]; intros [|i] Hn Hl; simpl in *; try lia.
  - subst h. reflexivity.
  - destruct h; simpl; rewrite IH; auto; lia.
Qed.

Lemma count_some_le {A} (l : list (option A)) : (count_some l <= length l)%nat.
Proof. induction l as [|[a|] t IH]; simpl; lia. Qed.

Lemma count_some_full {A} (l : list (option A)) :
  count_some l = length l -> forall i, (i < length l)%nat -> nth i l None <> None.
Proof.
  induction l as [|h t IH]; simpl; intros Hc i Hi; [lia|].
  destruct h as [a|].
  - destruct i; [discriminate|]. apply IH; lia.
  - pose proof (count_some_le t). lia.
Qed.

Lemma count_some_all {A} (l : list (option A)) :
  (forall i, (i < length l)%nat -> nth i l None <> None) -> count_some l = length l.
Proof.
  induction l as [|h t IH]; simpl; intro H; [reflexivity|].
  destruct h as [a|].
  - f_equal. apply IH. intros i Hi. apply (H (S i)). lia.
  - exfalso. apply (H 0%nat); [lia|reflexivity].
Qed.

Lemma count_some_repeat_none {A} k : count_some (repeat (@None A) k) = 0%nat.
Proof. induction k; simpl; auto. Qed.

Lemma nth_map_seq {A} (f : nat -> A) n i d : (i < n)%nat -> nth i (map f (seq 0 n)) d = f i.
Proof.
  intro H. rewrite (nth_indep _ d (f 0%nat)) by (rewrite map_length, seq_length; exact H).
  rewrite map_nth, seq_nth by assumption. reflexivity.
Qed.

Lemma map_nth_seq {A} (l : list A) d : map (fun i => nth i l d) (seq 0 (length l)) = l.
Proof.
  apply (nth_ext _ _ d d).
  - rewrite map_length, seq_length. reflexivity.
  - intros i Hi. rewrite map_length, seq_length in Hi.
    exact (nth_map_seq (fun j => nth j l d) _ _ _ Hi).
Qed.

Section PartSetProofs.
Variable hash : bytes -> bytes.
Hypothesis hash_inj : forall x y, hash x = hash y -> x = y.

Variable data : bytes.
Variable psize : nat.
Hypothesis psize_pos : (0 < psize)%nat.

Let cs := chunks psize data.
Let leaves := map hash cs.
Let n := length cs.
Hypothesis n_bound : (Z.of_nat n < 4611686018427387904)%Z.
Let root := simple_root hash leaves.

Definition genuine (i : nat) : part := mkPart (Z.of_nat i) (nth i cs []) (aunts_of hash leaves i).

Lemma leaves_length : length leaves = n.
Proof. unfold leaves, n. apply map_length. Qed.

Lemma nth_leaves i : (i < n)%nat -> nth i leaves [] = hash (nth i cs []).
Proof.
  intro H. unfold leaves. rewrite (nth_indep _ [] (hash [])) by (rewrite map_length; exact H).
  apply map_nth.
Qed.

Lemma mk_parts_genuine : mk_parts hash cs = map genuine (seq 0 n).
Proof.
  unfold mk_parts. fold leaves n.
  set (mk := fun ic : nat * bytes => mkPart (Z.of_nat (fst ic)) (snd ic) (aunts_of hash leaves (fst ic))).
  assert (Hlen : length (combine (seq 0 n) cs) = n)
    by (rewrite combine_length, seq_length; apply Nat.min_id).
  apply (nth_ext _ _ (mk (0%nat, [])) (genuine 0)).
  - rewrite !map_length, seq_length. exact Hlen.
  - intros i Hi. rewrite map_length, Hlen in Hi.
    rewrite map_nth, combine_nth, seq_nth, nth_map_seq by (assumption || apply seq_length).
    reflexivity.
Qed.

Lemma from_data_spec :
  from_data hash data psize = mkPS (Z.of_nat n) root (map (fun i => Some (genuine i)) (seq 0 n)) (Z.of_nat n).
Proof using psize_pos. unfold from_data. fold cs. rewrite mk_parts_genuine, map_map. reflexivity. Qed.

Lemma read_from_data : data <> [] -> read_all (from_data hash data psize) = Ok data.
Proof.
  intro Hne. rewrite from_data_spec. unfold read_all, is_complete. cbn [ps_count ps_total ps_parts].
  rewrite Z.eqb_refl. cbn [negb].
  destruct (map (fun i => Some (genuine i)) (seq 0 n)) eqn:E.
  - apply (f_equal (@length _)) in E. rewrite map_length, seq_length in E.
    apply length_zero_iff_nil in E. destruct (chunks_nonempty _ _ Hne E).
  - rewrite <- E, map_map. cbn [genuine p_bytes]. unfold n. rewrite map_nth_seq.
    f_equal. apply chunks_concat. exact psize_pos.
Qed.

Definition Inv (s : partset) : Prop :=
  ps_total s = Z.of_nat n /\ ps_hash s = root /\ length (ps_parts s) = n /\
  (forall i, (i < n)%nat -> nth i (ps_parts s) None = None \/ nth i (ps_parts s) None = Some (genuine i)) /\
  ps_count s = Z.of_nat (count_some (ps_parts s)).

Lemma Inv_init : forall s, from_header (Z.of_nat n) root = Ok s -> Inv s.
Proof.
  intros s. unfold from_header.
  destruct (Z.of_nat n <? 0)%Z eqn:E; [discriminate|]. intro H; injection H as <-.
  unfold Inv. cbn [ps_total ps_hash ps_parts ps_count]. rewrite Nat2Z.id.
  split; [reflexivity|]. split; [reflexivity|]. split; [apply repeat_length|]. split.
  - intros i Hi. left. apply nth_repeat.
  - rewrite count_some_repeat_none. reflexivity.
Qed.

Lemma from_header_ok : exists s, from_header (Z.of_nat n) root = Ok s.
Proof. unfold from_header. destruct (Z.of_nat n <? 0)%Z eqn:E; [apply Z.ltb_lt in E; lia|]. eauto. Qed.

Lemma Inv_full s : Inv s -> (forall i, (i < n)%nat -> nth i (ps_parts s) None = Some (genuine i)) ->
  s = from_data hash data psize.
Proof.
  intros (Ht & Hh & Hlen & _ & Hc) Hall. rewrite from_data_spec.
  destruct s as [t h ps c]. cbn [ps_total ps_hash ps_parts ps_count] in *. subst t h c.
  rewrite count_some_all, Hlen.
  - f_equal. apply (nth_ext _ _ None None).
    + rewrite map_length, seq_length. exact Hlen.
    + intros i Hi. rewrite Hlen in Hi. rewrite Hall, nth_map_seq by assumption. reflexivity.
  - intros i Hi. rewrite Hlen in Hi. rewrite Hall by assumption. discriminate.
Qed.

Lemma verify_genuine p :
  verify hash (p_index p) (Z.of_nat n) (part_hash hash p) root (p_aunts p) = true <->
  exists i, (i < n)%nat /\ p = genuine i.
Proof.
  pose proof leaves_length as Hl. pose proof n_bound as Hb.
  unfold root. rewrite <- Hl in Hb |- *. split.
  - intro Hv. apply (verify_sound hash hash_inj) in Hv as (Hi & Hleaf & Haunts); [|exact Hb].
    exists (Z.to_nat (p_index p)). split; [lia|].
    unfold part_hash in Hleaf. rewrite nth_leaves in Hleaf by lia. apply hash_inj in Hleaf.
    destruct p as [pi pb pa]. cbn [p_index p_bytes p_aunts] in *. unfold genuine.
    rewrite Z2Nat.id by lia. subst pb pa. reflexivity.
  - intros (i & Hi & ->). unfold genuine, part_hash. cbn [p_index p_bytes p_aunts].
    rewrite <- nth_leaves by lia. apply verify_complete; assumption.
Qed.

Lemma add_part_rejected_unchanged s p v : snd (add_part hash s p v) <> Added -> fst (add_part hash s p v) = s.
Proof.
  unfold add_part.
  destruct ((p_index p <? 0)%Z || (ps_total s <=? p_index p)%Z); [reflexivity|].
  destruct (nth (Z.to_nat (p_index p)) (ps_parts s) None); [reflexivity|].
  destruct (v && negb _); [reflexivity|]. simpl. congruence.
Qed.

Lemma add_part_added s p v : snd (add_part hash s p v) = Added ->
  fst (add_part hash s p v) =
  mkPS (ps_total s) (ps_hash s) (set_nth (ps_parts s) (Z.to_nat (p_index p)) (Some p)) (ps_count s + 1).
Proof.
  unfold add_part.
  destruct ((p_index p <? 0)%Z || (ps_total s <=? p_index p)%Z); [discriminate|].
  destruct (nth (Z.to_nat (p_index p)) (ps_parts s) None); [discriminate|].
  destruct (v && negb _); [discriminate|]. reflexivity.
Qed.

Lemma add_part_accepts s p : Inv s ->
  (snd (add_part hash s p true) = Added <->
   exists i, (i < n)%nat /\ p = genuine i /\ nth i (ps_parts s) None = None).
Proof.
  intros (Ht & Hh & _). unfold add_part. rewrite Ht, Hh. cbn [andb]. split.
  - destruct ((p_index p <? 0)%Z || (Z.of_nat n <=? p_index p)%Z); [discriminate|].
    destruct (nth (Z.to_nat (p_index p)) (ps_parts s) None) eqn:Eslot; [discriminate|].
    destruct (verify hash _ _ _ _ _) eqn:Ev; [|discriminate]. intros _.
    apply verify_genuine in Ev as (i & Hi & ->). cbn [genuine p_index] in Eslot.
    rewrite Nat2Z.id in Eslot. eauto.
  - intros (i & Hi & -> & Hs).
    replace ((p_index (genuine i) <? 0)%Z || (Z.of_nat n <=? p_index (genuine i))%Z) with false
      by (symmetry; apply orb_false_iff; cbn [genuine p_index]; split; [apply Z.ltb_ge|apply Z.leb_gt]; lia).
    replace (verify hash _ _ _ _ _) with true by (symmetry; apply verify_genuine; eauto).
    cbn [genuine p_index]. rewrite Nat2Z.id, Hs. reflexivity.
Qed.

Lemma add_part_step s p : Inv s ->
  fst (add_part hash s p true) = s \/
  exists i, (i < n)%nat /\ p = genuine i /\ nth i (ps_parts s) None = None /\
    fst (add_part hash s p true) =
      mkPS (ps_total s) (ps_hash s) (set_nth (ps_parts s) i (Some (genuine i))) (ps_count s + 1).
Proof.
  intro HI. destruct (snd (add_part hash s p true)) eqn:Eo.
  2-4: left; apply add_part_rejected_unchanged; rewrite Eo; discriminate.
  right. rewrite (add_part_added _ _ _ Eo).
  apply (add_part_accepts s p HI) in Eo as (i & Hi & -> & Hs).
  exists i. cbn [genuine p_index]. rewrite Nat2Z.id. auto.
Qed.

Lemma add_part_Inv s p : Inv s -> Inv (fst (add_part hash s p true)).
Proof.
  intro HI. destruct (add_part_step s p HI) as [->|(i & Hi & _ & Hslot & ->)]; [exact HI|].
  destruct HI as (Ht & Hh & Hlen & Hslots & Hc).
  unfold Inv. cbn [ps_total ps_hash ps_parts ps_count].
  split; [assumption|]. split; [assumption|]. split; [rewrite set_nth_length; assumption|]. split.
  - intros j Hj. destruct (Nat.eq_dec i j) as [<-|Hne].
    + right. apply nth_set_nth_eq. lia.
    + rewrite nth_set_nth_neq by assumption. auto.
  - rewrite count_some_set_nth by (auto; lia). lia.
Qed.

Lemma add_part_keeps s p i : Inv s -> nth i (ps_parts s) None = Some (genuine i) ->
  nth i (ps_parts (fst (add_part hash s p true))) None = Some (genuine i).
Proof.
  intros HI Hs. destruct (add_part_step s p HI) as [->|(j & Hj & _ & Hslot & ->)]; [exact Hs|].
  cbn [ps_parts]. rewrite nth_set_nth_neq; [exact Hs|congruence].
Qed.

Lemma add_part_genuine_fills s i : Inv s -> (i < n)%nat ->
  nth i (ps_parts (fst (add_part hash s (genuine i) true))) None = Some (genuine i).
Proof.
  intros HI Hi. pose proof HI as (_ & _ & Hlen & Hslots & _).
  destruct (Hslots i Hi) as [Hs|Hs]; [|apply add_part_keeps; assumption].
  rewrite add_part_added by (apply add_part_accepts; eauto).
  cbn [ps_parts genuine p_index]. rewrite Nat2Z.id. apply nth_set_nth_eq. lia.
Qed.

Lemma add_parts_cons s p l : add_parts hash s (p :: l) = add_parts hash (fst (add_part hash s p true)) l.
Proof. reflexivity. Qed.

Lemma add_parts_Inv l : forall s, Inv s -> Inv (add_parts hash s l).
Proof.
  induction l as [|p l IH]; intros s HI; [exact HI|]. rewrite add_parts_cons.
  apply IH. apply add_part_Inv. exact HI.
Qed.

Lemma add_parts_fills l i : (i < n)%nat -> forall s, Inv s ->
  In (genuine i) l \/ nth i (ps_parts s) None = Some (genuine i) ->
  nth i (ps_parts (add_parts hash s l)) None = Some (genuine i).
Proof.
  intros Hi. induction l as [|p l IH]; intros s HI H.
  - destruct H as [[]|H]. exact H.
  - rewrite add_parts_cons. apply IH; [apply add_part_Inv; exact HI|]. destruct H as [[->|H]|H].
    + right. apply add_part_genuine_fills; assumption.
    + left. exact H.
    + right. apply add_part_keeps; assumption.
Qed.

Theorem receiver_reaches_sender (arrivals : list part) s0 :
  from_header (Z.of_nat n) root = Ok s0 ->
  (forall i, (i < n)%nat -> In (genuine i) arrivals) ->
  add_parts hash s0 arrivals = from_data hash data psize.
Proof.
  intros H0 Hall. apply Inv_init in H0.
  apply Inv_full; [apply add_parts_Inv; exact H0|]. intros i Hi. apply add_parts_fills; auto.
Qed.

Theorem reassembly_any_order (arrivals : list part) s0 :
  data <> [] ->
  from_header (Z.of_nat n) root = Ok s0 ->
  (forall i, (i < n)%nat -> In (genuine i) arrivals) ->
  let s := add_parts hash s0 arrivals in
  is_complete s = true /\ read_all s = Ok data /\ ps_hash s = root.
Proof.
  intros Hne H0 Hall s. unfold s. rewrite (receiver_reaches_sender _ _ H0 Hall).
  split; [apply Z.eqb_refl|]. split; [apply read_from_data; exact Hne|reflexivity].
Qed.

Theorem accept_iff_genuine (arrivals : list part) s0 p :
  from_header (Z.of_nat n) root = Ok s0 ->
  let s := add_parts hash s0 arrivals in
  (snd (add_part hash s p true) = Added <->
   exists i, (i < n)%nat /\ p = genuine i /\ nth i (ps_parts s) None = None).
Proof using hash_inj psize_pos n_bound.
  intros H0 s. apply add_part_accepts, add_parts_Inv, Inv_init. exact H0.
Qed.

End PartSetProofs.
