(* Proofs about Model.EvmArith (C10): the word-level definitions the interpreter is compared with
   compute the mathematical operations of the specification - modular arithmetic, signed
   division and remainder on two's-complement readings, exponentiation, arithmetic shift - and
   stay within the word range. *)
From Coq Require Import ZArith Bool Lia List.
From AnnVerif Require Import Model.EvmArith.
Open Scope Z_scope.

Definition word (x : Z) : Prop := 0 <= x < W.

Lemma W_pos : 0 < W. Proof. unfold W. apply Z.pow_pos_nonneg; lia. Qed.
Lemma W_val : W = 2 * 2 ^ 255. Proof. unfold W. change 256 with (Z.succ 255). rewrite Z.pow_succ_r by lia. reflexivity. Qed.
Lemma word0 : word 0. Proof. split; [reflexivity|exact W_pos]. Qed.
Lemma wrap_word x : word (wrap x).
Proof. unfold word, wrap. apply Z.mod_pos_bound. exact W_pos. Qed.
Lemma wrap_id x : word x -> wrap x = x.
Proof. intro H. unfold wrap. apply Z.mod_small. exact H. Qed.

(* 2^255 is generalised to a variable before any arithmetic: [lia] would expand it into a 77-digit
   numeral and [nia] multiply such numerals. *)
Lemma sgn_range x : word x -> - 2 ^ 255 <= sgn x < 2 ^ 255.
Proof.
  unfold word, sgn. rewrite W_val. generalize (2 ^ 255). intros H Hx. destruct (Z.ltb_spec x H); lia.
Qed.
Lemma sgn_mod x : word x -> sgn x mod W = x.
Proof.
  intro H. unfold sgn. destruct (x <? 2 ^ 255); [apply Z.mod_small; exact H|].
  replace (x - W) with (x + (-1) * W) by ring. rewrite Z_mod_plus_full. apply Z.mod_small. exact H.
Qed.
Lemma sgn_nonzero x : word x -> x <> 0 -> sgn x <> 0.
Proof. intros Hx Hn E. apply Hn. rewrite <- (sgn_mod x Hx), E. reflexivity. Qed.
Lemma wrap_sgn_inv s : - 2 ^ 255 <= s < 2 ^ 255 -> sgn (wrap s) = s.
Proof.
  unfold wrap, sgn. rewrite W_val. generalize (2 ^ 255). intros H Hs.
  destruct (Z.lt_ge_cases s 0) as [Hn|Hn].
  - rewrite <- (Z.mod_add s 1 (2 * H)), Z.mod_small by lia. destruct (Z.ltb_spec (s + 1 * (2 * H)) H); lia.
  - rewrite Z.mod_small by lia. destruct (Z.ltb_spec s H); lia.
Qed.

Lemma quot_abs_le a b : b <> 0 -> Z.abs (a ÷ b) <= Z.abs a.
Proof. intro Hb. rewrite <- Z.quot_abs by exact Hb. apply Z.quot_le_upper_bound; nia. Qed.
Lemma quot_range H a b : - H <= a < H -> b <> 0 -> ~ (a = - H /\ b = -1) -> - H <= a ÷ b < H.
Proof.
  intros Ha Hb Hov. pose proof (quot_abs_le a b Hb) as Hq.
  destruct (Z.eq_dec a (- H)) as [->|Hn]; [|lia].
  (* a = -H: the magnitude H is reached only by b = 1 (giving -H) and b = -1 *)
  destruct (Z.lt_ge_cases 0 b) as [Hp|Hp].
  - rewrite Z.quot_opp_l in * by exact Hb. pose proof (Z.quot_pos H b). lia.
  - assert (E : - H ÷ b = H ÷ - b) by (rewrite <- (Z.quot_opp_opp H (- b)), Z.opp_involutive by lia; reflexivity).
    rewrite E in *. pose proof (Z.quot_lt H (- b)). lia.
Qed.
Lemma rem_range H a b : - H <= b < H -> b <> 0 -> - H <= Z.rem a b < H.
Proof. intros Hb Hn. pose proof (Z.rem_bound_abs a b Hn). lia. Qed.
Lemma div_range H a d : - H <= a < H -> 0 < d -> - H <= a / d < H.
Proof.
  intros Ha Hd. split; [apply Z.div_le_lower_bound|apply Z.div_lt_upper_bound]; nia.
Qed.

Theorem add_spec a b : op_add a b = (a + b) mod 2 ^ 256. Proof. reflexivity. Qed.
Theorem sub_spec a b : op_sub a b = (a - b) mod 2 ^ 256. Proof. reflexivity. Qed.
Theorem mul_spec a b : op_mul a b = (a * b) mod 2 ^ 256. Proof. reflexivity. Qed.
Theorem sub_add_inverse a b : word a -> op_add (op_sub a b) b = a.
Proof.
  intro H. unfold op_add, op_sub, wrap. rewrite Zplus_mod_idemp_l. replace (a - b + b) with a by lia. apply Z.mod_small. exact H.
Qed.
(* ADDMOD, MULMOD: no wrap at 2^256 before the reduction *)
Theorem addmod_spec a b n : n <> 0 -> op_addmod a b n = (a + b) mod n.
Proof. intro H. unfold op_addmod. destruct (Z.eqb_spec n 0); [contradiction|reflexivity]. Qed.
Theorem mulmod_spec a b n : n <> 0 -> op_mulmod a b n = (a * b) mod n.
Proof. intro H. unfold op_mulmod. destruct (Z.eqb_spec n 0); [contradiction|reflexivity]. Qed.

Lemma exp_pos_spec base p : exp_pos base p = (base ^ Zpos p) mod W.
Proof.
  pose proof W_pos as Hp.
  induction p as [p IH|p IH|]; cbn [exp_pos].
  - rewrite IH. unfold wrap. rewrite <- Z.mul_mod by lia. rewrite Z.mul_mod_idemp_l by lia.
    rewrite Pos2Z.inj_xI. replace (2 * Zpos p + 1) with (Zpos p + Zpos p + 1) by lia.
    rewrite !Z.pow_add_r by lia. rewrite Z.pow_1_r. reflexivity.
  - rewrite IH. unfold wrap. rewrite <- Z.mul_mod by lia. rewrite Pos2Z.inj_xO.
    replace (2 * Zpos p) with (Zpos p + Zpos p) by lia. rewrite Z.pow_add_r by lia. reflexivity.
  - unfold wrap. rewrite Z.pow_1_r. reflexivity.
Qed.
Theorem exp_spec base e : 0 <= e -> op_exp base e = (base ^ e) mod 2 ^ 256.
Proof.
  intro He. destruct e as [|p|p]; [reflexivity|apply exp_pos_spec|lia].
Qed.
(* 2 divides 2^256, so reduction keeps the parity *)
Lemma wrap_odd x : Z.odd (wrap x) = Z.odd x.
Proof.
  unfold wrap. rewrite Z.mod_eq by (pose proof W_pos; lia). rewrite W_val at 1.
  replace (x - 2 * 2 ^ 255 * (x / W)) with (x + 2 * (- 2 ^ 255 * (x / W))) by ring.
  apply Z.odd_add_mul_2.
Qed.
Lemma exp_odd base e : 0 < e -> Z.odd (op_exp base e) = Z.odd base.
Proof.
  intro He. rewrite exp_spec by lia. rewrite <- (Z.odd_pow base e He). apply wrap_odd.
Qed.

Theorem sdiv_spec a b : b <> 0 -> op_sdiv a b = (Z.quot (sgn a) (sgn b)) mod 2 ^ 256.
Proof. intros Hb. unfold op_sdiv. destruct (Z.eqb_spec b 0); [contradiction|reflexivity]. Qed.
Theorem sdiv_signed a b : word a -> word b -> b <> 0 -> ~ (sgn a = - 2 ^ 255 /\ sgn b = -1) ->
  sgn (op_sdiv a b) = Z.quot (sgn a) (sgn b).
Proof.
  intros Ha Hb Hb0 Hov. rewrite sdiv_spec by assumption. apply (wrap_sgn_inv (Z.quot (sgn a) (sgn b))).
  apply quot_range; [apply sgn_range; exact Ha|apply sgn_nonzero; assumption|exact Hov].
Qed.
Theorem smod_signed a b : word a -> word b -> b <> 0 -> sgn (op_smod a b) = Z.rem (sgn a) (sgn b).
Proof.
  intros Ha Hb Hb0. unfold op_smod. destruct (Z.eqb_spec b 0); [contradiction|].
  apply wrap_sgn_inv. apply rem_range; [apply sgn_range; exact Hb|apply sgn_nonzero; assumption].
Qed.

Theorem slt_spec a b : op_slt a b = if sgn a <? sgn b then 1 else 0. Proof. reflexivity. Qed.
Theorem lt_spec a b : op_lt a b = if a <? b then 1 else 0. Proof. reflexivity. Qed.

Theorem shl_spec s v : 0 <= s < 256 -> op_shl s v = (v * 2 ^ s) mod 2 ^ 256.
Proof. intro H. unfold op_shl. destruct (Z.ltb_spec s 256); [reflexivity|lia]. Qed.
Theorem shr_spec s v : 0 <= s < 256 -> op_shr s v = v / 2 ^ s.
Proof. intro H. unfold op_shr. destruct (Z.ltb_spec s 256); [reflexivity|lia]. Qed.
Theorem sar_signed s v : word v -> 0 <= s < 256 -> sgn (op_sar s v) = sgn v / 2 ^ s.
Proof.
  intros Hv Hs. unfold op_sar. destruct (Z.ltb_spec s 256); [|lia].
  apply wrap_sgn_inv. apply div_range; [apply sgn_range; exact Hv|apply Z.pow_pos_nonneg; lia].
Qed.
Theorem sar_saturates s v : 256 <= s -> op_sar s v = if sgn v <? 0 then 2 ^ 256 - 1 else 0.
Proof. intros Hs. unfold op_sar. destruct (Z.ltb_spec s 256); [lia|reflexivity]. Qed.
Theorem byte_spec th v : 0 <= th < 32 -> op_byte th v = (v / 256 ^ (31 - th)) mod 256.
Proof.
  intro H. unfold op_byte. destruct (Z.ltb_spec th 32); [|lia]. f_equal. f_equal.
  change 256 with (2 ^ 8). rewrite <- Z.pow_mul_r by lia. reflexivity.
Qed.

Theorem div_word a b : word a -> word b -> word (op_div a b).
Proof.
  intros Ha Hb. unfold op_div. destruct (Z.eqb_spec b 0); [exact word0|]. unfold word in *.
  split; [apply Z.div_pos; lia|]. apply Z.le_lt_trans with a; [|lia]. apply Z.div_le_upper_bound; nia.
Qed.
Lemma mod_below_word x n : word n -> n <> 0 -> word (x mod n).
Proof. unfold word. intros Hn H0. pose proof (Z.mod_pos_bound x n). lia. Qed.
Theorem mod_word a b : word b -> word (op_mod a b).
Proof. intros Hb. unfold op_mod. destruct (Z.eqb_spec b 0); [exact word0|apply mod_below_word; assumption]. Qed.
Theorem addmod_word a b n : word n -> word (op_addmod a b n).
Proof. intros Hn. unfold op_addmod. destruct (Z.eqb_spec n 0); [exact word0|apply mod_below_word; assumption]. Qed.
Theorem mulmod_word a b n : word n -> word (op_mulmod a b n).
Proof. intros Hn. unfold op_mulmod. destruct (Z.eqb_spec n 0); [exact word0|apply mod_below_word; assumption]. Qed.
