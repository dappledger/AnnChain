(* The backing invariant of Proofs/Backed.v through the consensus state machine: in every state a
   node reaches within a height, every vote set it holds is made of votes that were delivered to
   it as inputs.  Only IVote inputs add to the delivered list. *)
From Coq Require Import List NArith ZArith Lia Bool.
From AnnVerif Require Import Base.Res Model.VoteSet Model.Node
 Proofs.PowerSum Proofs.NodeProofs Proofs.NodeSteps Proofs.Backed.
Import ListNotations.
Open Scope Z_scope.

Section NodeBacked.
Variable VS : list validator.
Hypothesis Hbounded : bounded VS.
Variable h0 : Z.

Definition node_ok (off : list vote) (n : node) : Prop :=
  h0 <= height n /\ (height n = h0 -> hvs_ok VS off (votes n) /\ hv_height (votes n) = h0).

Lemma node_ok_mono off off' n : incl off off' -> node_ok off n -> node_ok off' n.
Proof. intros Hi [L H]. split; [exact L|]. intro E. destruct (H E) as [A B]. split; [eapply hvs_ok_mono; eauto|exact B]. Qed.

Lemma node_ok_same off n m : height m = height n -> votes m = votes n -> node_ok off n -> node_ok off m.
Proof. intros Hh Hv H. unfold node_ok. rewrite Hh, Hv. exact H. Qed.

Lemma act_ok off reached dv n o n' : incl dv off -> act reached dv n o n' -> node_ok off n -> node_ok off n'.
Proof.
  intros Hdv Ha [L H]. destruct (act_keeps _ _ _ _ _ Ha) as [Hh _].
  destruct (act_votes _ _ _ _ _ Ha) as [Ev|[(k & Ev)|(v & peer & added & code & Hv & Ev)]].
  - apply (node_ok_same off n n' Hh Ev). split; assumption.
  - split; [lia|]. rewrite Hh. intro E. destruct (H E) as [A B].
    destruct (hv_set_round_ok VS off _ _ _ A Ev) as [A' B']. split; [exact A'|congruence].
  - split; [lia|]. rewrite Hh. intro E. destruct (H E) as [A B].
    destruct (hv_add_vote_ok VS Hbounded off _ _ _ _ _ _ A Ev) as [A' B']. split; [|congruence].
    eapply hvs_ok_mono; [|exact A']. intros x [<-|Hx]; [apply Hdv; exact Hv|exact Hx].
Qed.

Lemma finalize_ok off c h n n' o : finalize_commit c h n = Ok (n', o) -> node_ok off n -> node_ok off n'.
Proof.
  intros E Hn. apply finalize_commit_next in E as [[-> _]|(Hh & _)]; [exact Hn|].
  destruct Hn as [L _]. split; [lia|intro; lia].
Qed.

Definition delivered_of (i : input) : list vote := match i with IVote v _ => [v] | _ => [] end.
Definition delivered (ins : list input) : list vote := flat_map delivered_of ins.

Theorem handle_ok off c i n n' o : node_ok off n -> handle c i n = Ok (n', o) -> node_ok (delivered_of i ++ off) n'.
Proof.
  intros H E. set (off' := delivered_of i ++ off).
  assert (H' : node_ok off' n) by (eapply node_ok_mono; [|exact H]; apply incl_appr, incl_refl).
  revert H'. apply (trace_rel False (delivered_of i) (fun a b => node_ok off' a -> node_ok off' b)) with (c := c) (o := o); auto.
  - intros a oa b Ha. eapply act_ok; [|exact Ha]. apply incl_appl, incl_refl.
  - intros h m m' o2. apply finalize_ok.
  - apply handle_trace_any, E.
Qed.

Theorem run_ok c ins : forall off n n', node_ok off n -> run c ins n = Ok n' -> node_ok (delivered ins ++ off) n'.
Proof.
  induction ins as [|i t IH]; intros off n n' H; cbn [run].
  - intro E. injection E as <-. exact H.
  - destruct (handle c i n) as [[n1 o1]| |] eqn:E1; try discriminate. intro E.
    pose proof (handle_ok off c i n n1 o1 H E1) as H1.
    pose proof (IH _ _ _ H1 E) as H2.
    eapply node_ok_mono; [|exact H2]. unfold delivered. cbn [flat_map].
    intros x Hx. apply in_app_or in Hx. destruct Hx as [Hx|Hx].
    + apply in_or_app. left. apply in_or_app. right. exact Hx.
    + apply in_app_or in Hx. destruct Hx as [Hx|Hx]; apply in_or_app; [left; apply in_or_app; left; exact Hx|right; exact Hx].
Qed.

Lemma init_ok vs lc me s n0 : vals_of vs = VS -> init_node h0 vs lc me s = Ok n0 -> node_ok [] n0.
Proof.
  intros Hv. unfold init_node. rewrite Hv. destruct (new_hvs h0 VS) as [hv| |] eqn:E; try discriminate.
  intro E0. injection E0 as <-. destruct (new_hvs_ok VS h0 hv E) as [A B].
  split; cbn [height votes]; [lia|auto].
Qed.

End NodeBacked.
