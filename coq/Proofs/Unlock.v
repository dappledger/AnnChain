(* The lock-release rule of addVote (gemmill/consensus/pbft/state.go, "unlock if prevotes is a valid
   POL"), which termination rests on in this version: the node prevotes its locked block whatever
   is proposed, so a height can only terminate once a node that is locked on a block the others have
   left lets go of it.  Proved for every state of Model/Node.v: when a prevote completes +2/3
   prevotes for something else than the locked block in a round R after the lock round and not
   after the node's round - in particular in a round the node has already left - the step leaves
   the node either unlocked or locked from round R on (it can only have locked again through a
   +2/3 prevote of round R or later). *)
From Coq Require Import List NArith ZArith Bool Lia.
From AnnVerif Require Import Base.Res Model.VoteSet Model.Node
 Proofs.NodeProofs Proofs.NodeSteps.
Import ListNotations.
Open Scope Z_scope.

Definition fresh_lock (R : Z) (n : node) : Prop :=
  match lblock n with None => True | Some _ => R <= lround n end.

(* locks are taken in the node's current round *)
Lemma acts_fresh reached dv R n o n' : acts reached dv n o n' -> R <= round n -> fresh_lock R n -> fresh_lock R n'.
Proof.
  induction 1 as [|n o1 m o2 n' H1 _ IH]; [auto|]. intros Hr Hf.
  destruct (act_keeps _ _ _ _ _ H1) as [_ Hrm]. apply IH; [lia|]. unfold fresh_lock in *.
  destruct (act_lock _ _ _ _ _ H1) as [[-> ->]|[-> | ->]]; [exact Hf|exact I|destruct (lblock m); [lia|exact I]].
Qed.

Theorem late_polka_releases_lock c v peer n n' o hv code lb b :
  v_height v = height n -> v_type v = 1%N ->
  hv_add_vote (votes n) v peer = Ok (hv, true, code) ->
  lblock n = Some lb -> lround n < v_round v -> v_round v <= round n ->
  maj23 (hv_prevotes hv (v_round v)) = Some b -> hashes_to (Some lb) (b_hash b) = false ->
  add_vote_cs c v peer n = Ok (n', o) ->
  fresh_lock (v_round v) n'.
Proof.
  intros Hh Ht Ea El Hlr Hrd Hm Hother.
  intro E. apply add_vote_cs_cases in E as [[Eh _]|[(_ & hv' & added & code' & Ea' & E)|(Eh & _)]]; [lia| |contradiction].
  rewrite Ea in Ea'. injection Ea' as <- <- <-. rewrite Ht in E. cbn [negb N.eqb Pos.eqb] in E.
  apply bind_ok in E as (n5 & o1 & o2 & E1 & E2 & _).
  apply report_idle in E2 as [-> _]. apply (on_prevote_rest False []) in E1; [|reflexivity].
  (* the rule fires: the lock is dropped, and the rest of the step happens from round R on *)
  assert (Hn2 : unlock_rule (set_votes n hv) (v_round v) = set_lock (set_votes n hv) 0 None).
  { destruct (unlock_rule_cases (set_votes n hv) (v_round v)) as [[E _]|[_ Hkeep]]; [exact E|].
    rewrite (Hkeep lb b El (conj Hlr Hrd) Hm) in Hother. discriminate. }
  rewrite Hn2 in E1. eapply acts_fresh; [exact E1|exact Hrd|exact I].
Qed.
