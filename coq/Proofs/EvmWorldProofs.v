(* The world-level machine (Model/EvmWorld.v): a frame running in static mode - the callee of a
   STATICCALL and everything it calls in turn - leaves every account and the logs exactly as they
   were, whatever its code does, for every run length.  ("Exactly" up to the representation of the
   world as an association list: every account reads the same.) *)
From Coq Require Import ZArith Bool List.
From AnnVerif Require Import Model.EvmCore Model.EvmWorld.
Import ListNotations.
Open Scope Z_scope.

Definition wsame (a b : wstate) : Prop :=
  (forall x, get_acc (ws_world a) x = get_acc (ws_world b) x) /\ ws_logs a = ws_logs b /\ ws_dead a = ws_dead b.
Lemma wsame_refl a : wsame a a. Proof. split; auto. Qed.
Lemma wsame_trans a b c : wsame a b -> wsame b c -> wsame a c.
Proof. intros (A1 & A2 & A3) (B1 & B2 & B3). split; [intro x; rewrite A1; apply B1|split; congruence]. Qed.

Lemma get_add_balance_0 w a x : get_acc (add_balance w a 0) x = get_acc w x.
Proof.
  unfold add_balance, set_acc. cbn [get_acc]. destruct (Z.eqb_spec a x) as [->|]; [|reflexivity].
  destruct (get_acc w x) as [n bal c s]. cbn. rewrite Z.add_0_r. reflexivity.
Qed.

(* Stated on the result, not on an equation [run_frame .. = (ws', o)], so that the case analysis
   below works on the goal alone. *)
Definition unch (ws : wstate) (r : wstate * fout) : Prop := wsame (fst r) ws.
Lemma unch_here ws o : unch ws (ws, o). Proof. apply wsame_refl. Qed.
Lemma unch_if ws (c : bool) x y : unch ws x -> unch ws y -> unch ws (if c then x else y).
Proof. destruct c; auto. Qed.

Section Step.
Variable b : benv.
Variable k : nat.
Hypothesis IH : forall ws fr l, f_static fr = true -> unch ws (run_frame b k ws fr l).

(* the end of the four call instructions in [run_frame]: the callee is static as well, and the world
   [w1] it starts from reads like the caller's (a CALL in static mode transfers 0) *)
Lemma call_unch ws fr w1 callee pc rest mem roff rsize :
  f_static fr = true -> f_static callee = true -> (forall x, get_acc w1 x = get_acc (ws_world ws) x) ->
  unch ws
    match f_code callee with
    | [] => run_frame b k (mkWs w1 (ws_logs ws) (ws_dead ws)) fr (mkL pc (1 :: rest) mem [])
    | _ => match run_frame b k (mkWs w1 (ws_logs ws) (ws_dead ws)) callee (mkL 0 [] [] []) with
           | (ws2, FStop ret) => run_frame b k ws2 fr (mkL pc (1 :: rest) (mem_set mem roff rsize ret) ret)
           | (_, FRevert ret) => run_frame b k ws fr (mkL pc (0 :: rest) (mem_set mem roff rsize ret) ret)
           | (_, FFail) | (_, FOog) => run_frame b k ws fr (mkL pc (0 :: rest) mem [])
           | (_, FUnsup) => (ws, FUnsup)
           end
    end.
Proof.
  intros Hs Hc Hw.
  assert (S1 : wsame (mkWs w1 (ws_logs ws) (ws_dead ws)) ws) by (split; [exact Hw|split; reflexivity]).
  destruct (f_code callee).
  - apply (wsame_trans _ _ _ (IH _ _ _ Hs) S1).
  - pose proof (IH (mkWs w1 (ws_logs ws) (ws_dead ws)) callee (mkL 0 [] [] []) Hc) as S2.
    destruct (run_frame b k _ callee _) as [ws2 [ret|ret| | |]]; try apply (IH _ _ _ Hs); [|apply unch_here].
    apply (wsame_trans _ _ _ (IH _ _ _ Hs)). exact (wsame_trans _ _ _ S2 S1).
Qed.

Lemma step_unch ws fr l : f_static fr = true -> unch ws (run_frame b (S k) ws fr l).
Proof.
  intro Hs. cbn [run_frame].
  (* the depth and stack limit as a variable: the numeral is a term of 1024 constructors that every
     later step would go through, in more than a dozen places *)
  generalize 1024%nat. intro lim. rewrite Hs. cbn [andb].
  (* [generalize] and [unch_if] instead of [destruct]: the term is large, and [destruct] looks for
     its pattern in all of it *)
  generalize (wdecode (nth (l_pc l) (f_code fr) 0)). intros [i|].
  2:{ (* a frame-local instruction: writes fail, the others leave [ws] to the next turn *)
      destruct (is_write _); [apply unch_here|].
      destruct (step _ _ _) as [m'|[ret st lg|ret| | |]]; try apply unch_here. apply IH, Hs. }
  destruct i; cbn [wkind wmem fst snd].
  all: apply unch_if; [apply unch_here|]; apply unch_if; [apply unch_here|].
  - (* BALANCE *) apply IH, Hs.
  - (* EXTCODESIZE *) apply IH, Hs.
  - (* EXTCODECOPY *) destruct (mem_need _ _); try apply unch_here; apply IH, Hs.
  - (* EXTCODEHASH *) apply IH, Hs.
  - (* RETURNDATASIZE *) apply IH, Hs.
  - (* RETURNDATACOPY *)
    destruct (mem_need _ _); try apply unch_here; (apply unch_if; [apply unch_here|apply IH, Hs]).
  - (* CALL: in static mode the value is zero *)
    destruct (Z.eqb_spec (st (l_stack l) 2) 0) as [Ev|]; [rewrite Ev; cbn [negb]|apply unch_here].
    destruct (mmax _ _); try apply unch_here.
    all: apply unch_if; [apply unch_here|]; apply unch_if; [apply IH, Hs|]; apply unch_if; [apply IH, Hs|].
    all: apply (call_unch ws fr _ (mkFr _ _ _ _ _ _ _)); [exact Hs|reflexivity|].
    all: intro x; rewrite !get_add_balance_0; reflexivity.
  - (* CALLCODE *)
    destruct (mmax _ _); try apply unch_here.
    all: apply unch_if; [apply unch_here|]; apply unch_if; [apply IH, Hs|]; apply unch_if; [apply IH, Hs|].
    all: apply (call_unch ws fr _ (mkFr _ _ _ _ _ _ _)); [exact Hs|reflexivity|reflexivity].
  - (* DELEGATECALL *)
    destruct (mmax _ _); try apply unch_here.
    all: apply unch_if; [apply unch_here|]; apply unch_if; [apply IH, Hs|].
    all: apply (call_unch ws fr _ (mkFr _ _ _ _ _ _ _)); [exact Hs|reflexivity|reflexivity].
  - (* STATICCALL *)
    destruct (mmax _ _); try apply unch_here.
    all: apply unch_if; [apply unch_here|]; apply unch_if; [apply IH, Hs|].
    all: apply (call_unch ws fr _ (mkFr _ _ _ _ _ _ _)); [exact Hs|reflexivity|reflexivity].
  - (* CREATE, CREATE2, SELFDESTRUCT fail in static mode *) apply unch_here.
  - apply unch_here.
  - apply unch_here.
Qed.
End Step.

Theorem static_frame_changes_nothing b fuel : forall ws fr l ws' o,
  f_static fr = true -> run_frame b fuel ws fr l = (ws', o) -> wsame ws' ws.
Proof.
  assert (A : forall ws fr l, f_static fr = true -> unch ws (run_frame b fuel ws fr l)).
  { induction fuel as [|k IH]; [intros; apply unch_here|apply step_unch; exact IH]. }
  intros ws fr l ws' o Hs E. specialize (A ws fr l Hs). rewrite E in A. exact A.
Qed.
