(* Proofs about Model/Commit.v: whatever prefix of a commit's writes survives, and however often
   the recovering node dies again inside its re-commit, the node starts (no sanity panic) and ends
   with block store, consensus state and application agreeing on the new height, every record of
   every height on disk, and the application state holding every block exactly once. *)
From Coq Require Import List NArith Bool Lia.
From AnnVerif Require Import Model.Commit.
Import ListNotations.
Open Scope N_scope.

Definition has_all (d : disk) (i : N) : Prop :=
  mem i (metas d) = true /\ mem i (parts d) = true /\ mem i (seens d) = true /\
  mem i (tries d) = true /\ mem i (receipts d) = true.
Definition Complete (d : disk) (h : N) : Prop :=
  desc d = h /\ state d = h /\ app d = h /\ approot d = chain h /\ forall i, 1 <= i <= h -> has_all d i.

(* a commit of h caught anywhere: below h everything is there; the three records are at h-1 or h and
   became h only in the order descriptor, application, state; what each record promises is there *)
Definition Mid (d : disk) (h : N) : Prop :=
  (forall i, 1 <= i < h -> has_all d i) /\
  (desc d = h - 1 \/ desc d = h) /\ (app d = h - 1 \/ app d = h) /\ (state d = h - 1 \/ state d = h) /\
  (desc d = h -> mem h (metas d) = true /\ mem h (parts d) = true /\ mem h (seens d) = true) /\
  (app d = h -> desc d = h /\ mem h (tries d) = true /\ approot d = chain h) /\
  (app d = h - 1 -> approot d = chain (h - 1)) /\
  (state d = h -> app d = h /\ mem h (receipts d) = true).

Lemma mem_cons_same x l : mem x (x :: l) = true.
Proof. unfold mem. cbn. now rewrite N.eqb_refl. Qed.
Lemma mem_cons_keep x y l : mem x l = true -> mem x (y :: l) = true.
Proof. unfold mem. cbn. intros ->. now rewrite orb_true_r. Qed.

Lemma chain_step h : 1 <= h -> chain h = h :: chain (h - 1).
Proof.
  intros Hh. unfold chain.
  replace (N.to_nat h) with (S (N.to_nat (h - 1))) by lia.
  cbn [chain_nat]. f_equal. lia.
Qed.

Lemma complete_mid d h : 1 <= h -> Complete d (h - 1) -> Mid d h.
Proof.
  intros Hh (Hd & Hs & Ha & Hr & Hall).
  split; [intros i Hi; apply Hall; lia|].
  (* the three records are at h-1, which is not h: no promise is due *)
  rewrite Hd, Hs, Ha. intuition lia.
Qed.

Lemma mid_complete d h : 1 <= h -> Mid d h -> state d = h -> Complete d h.
Proof.
  intros Hh (Hlow & _ & _ & _ & Pd & Pa & _ & Ps) E.
  destruct (Ps E) as [Ea Hr]. destruct (Pa Ea) as (Ed & Ht & Hroot). destruct (Pd Ed) as (Hm & Hp & Hsn).
  refine (conj Ed (conj E (conj Ea (conj Hroot _)))). intros i Hi.
  destruct (N.eq_dec i h) as [->|Hne]; [now repeat split | apply Hlow; lia].
Qed.

Lemma has_all_write d w i : has_all d i -> has_all (apply_write d w) i.
Proof.
  intros (Hm & Hp & Hs & Ht & Hr).
  destruct w; repeat split; cbn [apply_write metas parts seens tries receipts]; auto using mem_cons_keep.
Qed.

Lemma low_preserved d w h :
  (forall i, 1 <= i < h -> has_all d i) -> forall i, 1 <= i < h -> has_all (apply_write d w) i.
Proof. intros H i Hi. apply has_all_write, H, Hi. Qed.

Definition after_stage (h : N) (base : list N) (n : nat) : list wr := firstn n (commit_writes h base).

(* Three writes announce something: the descriptor the block's records, the application's record
   the descriptor and the trie, the state the application's record and the receipts.  A write is
   backed when what it announces is on disk already; the other writes only add a record. *)
Definition backed (d : disk) (h : N) (w : wr) : Prop :=
  match w with
  | WDesc x => x = h /\ mem h (metas d) = true /\ mem h (parts d) = true /\ mem h (seens d) = true
  | WLastBlock x r => x = h /\ r = chain h /\ desc d = h /\ mem h (tries d) = true
  | WState x => x = h /\ app d = h /\ mem h (receipts d) = true
  | _ => True
  end.

Lemma mid_write d h w : 1 <= h -> Mid d h -> backed d h w -> Mid (apply_write d w) h.
Proof.
  intros Hh (Hlow & Hd & Ha & Hs & P) B.
  split; [exact (low_preserved d w h Hlow)|].
  destruct w; cbn [backed] in B;
    cbn [apply_write metas parts seens desc tries app approot receipts state].
  (* all but WDesc, WLastBlock, WState: the three records stay, and what they promise is only that
     records are there - one more does no harm.  (The three disjunctions are cleared before
     [intuition], which would split on each of them.) *)
  1-4, 6-7, 9: refine (conj Hd (conj Ha (conj Hs _))); clear Hd Ha Hs; intuition (auto using mem_cons_keep).
  - destruct B as (-> & Hm & Hp & Hsn).
    refine (conj (or_intror eq_refl) (conj Ha (conj Hs _))). clear Hd Ha Hs. intuition.
  - destruct B as (-> & -> & Ed & Ht).
    refine (conj Hd (conj (or_intror eq_refl) (conj Hs _))). clear Hd Ha Hs. intuition lia.
  - destruct B as (-> & Ea & Hr).
    refine (conj Hd (conj Ha (conj (or_intror eq_refl) _))). clear Hd Ha Hs. intuition.
Qed.

Fixpoint ordered (d : disk) (h : N) (ws : list wr) : Prop :=
  match ws with
  | [] => True
  | w :: ws' => backed d h w /\ ordered (apply_write d w) h ws'
  end.

Lemma mid_lifetime h ws : 1 <= h -> forall d k, Mid d h -> ordered d h ws -> Mid (lifetime d ws k) h.
Proof.
  intros Hh. induction ws as [|w ws IH]; intros d k M O.
  - now destruct k.
  - destruct k as [|k]; [exact M|]. destruct O as [B O].
    apply (IH (apply_write d w) k); [now apply mid_write | exact O].
Qed.

Lemma commit_ordered d h : 1 <= h -> ordered d h (commit_writes h (chain (h - 1))).
Proof.
  intros Hh. unfold commit_writes, store_writes, exec_writes. rewrite <- (chain_step h Hh).
  repeat split; apply mem_cons_same.
Qed.

(* ten writes: the whole of [commit_writes] *)
Lemma mid_commit_prefix d h k :
  1 <= h -> Mid d h ->
  Mid (lifetime d (commit_writes h (chain (h - 1))) k) h /\
  ((10 <= k)%nat -> state (lifetime d (commit_writes h (chain (h - 1))) k) = h).
Proof.
  intros Hh M. split.
  - apply mid_lifetime; auto using commit_ordered.
  - intros Hk. unfold lifetime. rewrite firstn_all2 by exact Hk. reflexivity.
Qed.

Lemma mid_commit_complete d h :
  1 <= h -> Mid d h -> Complete (apply_writes d (commit_writes h (chain (h - 1)))) h.
Proof.
  intros Hh M. destruct (mid_commit_prefix d h 10 Hh M) as [M' E].
  apply mid_complete; [exact Hh | exact M' | exact (E (le_n 10))].
Qed.

Lemma mid_heights d h : 1 <= h -> Mid d h -> h <= state d + 1 /\ state d <= app d <= desc d /\ desc d <= h.
Proof. intros Hh (_ & Hd & Ha & Hs & _ & Pa & _ & Ps). lia. Qed.

Lemma mid_store_view d h : 1 <= h -> Mid d h -> store_view d = state d.
Proof.
  intros Hh M. pose proof (mid_heights d h Hh M). unfold store_view.
  destruct (N.eqb_spec (state d + 1) (desc d)); [reflexivity | lia].
Qed.

Lemma mid_recover_ok d h : 1 <= h -> Mid d h -> recover_ok true d = true.
Proof.
  intros Hh M. pose proof (mid_heights d h Hh M) as Hord.
  unfold recover_ok. rewrite (mid_store_view d h Hh M), N.eqb_refl. cbn [negb andb].
  destruct (N.eqb_spec (state d) 0); [reflexivity|].
  destruct (N.ltb_spec (state d) (app d)) as [Hlt|Hge].
  - (* the application has committed h and the state has not: the window repaired by 4b0525d;
       the block record it asks for is there because the descriptor is at h *)
    assert (Ea : app d = h) by lia.
    destruct M as (_ & _ & _ & _ & Pd & Pa & _).
    destruct (Pa Ea) as (Ed & _). destruct (Pd Ed) as (Hm & _).
    rewrite Ea, Hm, andb_true_r. apply N.eqb_eq. lia.
  - destruct (N.eqb_spec (state d) (app d)); [reflexivity | lia].
Qed.

Lemma start_on_mid d h :
  1 <= h -> Mid d h ->
  start_node true d h =
  Ready (if state d =? h then [] else commit_writes h (chain (h - 1))).
Proof.
  intros Hh M. pose proof (mid_heights d h Hh M) as Hord.
  unfold start_node. rewrite (mid_recover_ok d h Hh M), (mid_store_view d h Hh M).
  destruct (N.eqb_spec (state d + 1) h) as [E|E].
  - assert (state d =? h = false) as -> by (apply N.eqb_neq; lia).
    assert (state d <? h = true) as -> by (apply N.ltb_lt; lia). reflexivity.
  - assert (state d =? h = true) as -> by (apply N.eqb_eq; lia). reflexivity.
Qed.

Lemma recoveries_complete h ks : 1 <= h -> forall d, Mid d h ->
  exists d', recoveries true d h ks = Some d' /\ Complete d' h.
Proof.
  intros Hh. induction ks as [|k ks IH]; intros d M; cbn [recoveries]; rewrite (start_on_mid d h Hh M).
  - eexists. split; [reflexivity|]. destruct (N.eqb_spec (state d) h) as [E|_].
    + now apply mid_complete.
    + now apply mid_commit_complete.
  - apply IH. destruct (state d =? h).
    + now destruct k.
    + now apply mid_commit_prefix.
Qed.

Theorem crash_recovery d h k0 ks :
  1 <= h -> Complete d (h - 1) ->
  exists d', crash_history true d h k0 ks = Some d' /\ Complete d' h.
Proof.
  intros Hh C. unfold crash_history.
  assert (Hr : approot d = chain (h - 1)) by apply C.
  rewrite Hr. apply recoveries_complete; auto.
  apply mid_commit_prefix; auto. now apply complete_mid.
Qed.

Corollary commit_complete d h :
  1 <= h -> Complete d (h - 1) -> Complete (apply_writes d (commit_writes h (approot d))) h.
Proof.
  intros Hh C.
  assert (Hr : approot d = chain (h - 1)) by apply C.
  rewrite Hr. now apply mid_commit_complete, complete_mid.
Qed.

(* crash points 8 and 9: the node dies between the application's commit and its own *)
Definition disk0 : disk := mkDisk [] [] [] 0 0 [] 0 [] [] 0.
Definition disk2 : disk := apply_writes (apply_writes disk0 (commit_writes 1 [])) (commit_writes 2 [1]).
Lemma unrepaired_node_does_not_restart :
  Complete disk2 2 /\ crash_history false disk2 3 8 [] = None /\ crash_history false disk2 3 9 [] = None /\
  exists d', crash_history true disk2 3 8 [] = Some d' /\ complete_upto d' 3 = true.
Proof.
  split.
  - assert (C0 : Complete disk0 (1 - 1)) by (do 4 (split; [reflexivity|]); intros i Hi; lia).
    assert (C1 := commit_complete disk0 1 ltac:(lia) C0).
    exact (commit_complete _ 2 ltac:(lia) C1).
  - split; [vm_compute; reflexivity|]. split; [vm_compute; reflexivity|].
    eexists. split; vm_compute; reflexivity.
Qed.
