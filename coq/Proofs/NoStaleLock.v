(* No node stays locked against a later polka it holds (C12; the Go monitor
   "lock-kept-against-later-polka" checks I1 on the real code).  For every state a node of
   Model/Node.v reaches from the start of a height while it is in that height and has not decided
   (before every input it was below the commit step), in the configuration without skip-commit:
     I1  if the node is locked on a block since round lr, every +2/3 prevote majority it holds for a
         round in (lr, its round] is for that block;
     I2  no vote set of a round after the node's own holds +2/3 of any prevotes (it would have
         moved the node there).
   I1 is what lets a height terminate: the nodes of this code base prevote their locked block
   whatever is proposed, so once +2/3 have prevoted something else in a later round, nobody who
   learns of it may stay behind on the old lock.
   Both statements fail between the moment a prevote of round R enters the vote sets and the moment
   addVote has acted on it, for round R only.  So they are carried with a set X of exempted rounds:
   every action but the insertion keeps them for any X ([acts_K], from the walk of Proofs/NodeSteps.v);
   the insertion is followed by hand through addVote's pieces with X = {R} until the exemption can be
   closed ([insert_K], [on_prevote_K]). *)
From Coq Require Import List NArith ZArith Bool Lia.
From AnnVerif Require Import Base.Res Base.Bytes Model.VoteSet Model.Node
 Proofs.PowerSum Proofs.VoteSetProofs Proofs.NodeProofs Proofs.NodeSteps Proofs.Backed Proofs.NodeBacked.
Import ListNotations.
Open Scope Z_scope.

Section NoStaleLock.
Variable VS : list validator.
Hypothesis Hbounded : bounded VS.
Variable h0 : Z.

(* What an action other than the insertion of a vote can do to the prevote set of a round q: its
   majority and its +2/3-of-any flag stay as they were, or the set is one just opened *)
Definition fresh (h : hvs) (q : Z) : Prop :=
  any23 (hv_prevotes h q) = false /\ maj23 (hv_prevotes h q) = None.
Definition same_or_fresh (h h' : hvs) (q : Z) : Prop :=
  (maj23 (hv_prevotes h' q) = maj23 (hv_prevotes h q) /\ any23 (hv_prevotes h' q) = any23 (hv_prevotes h q)) \/ fresh h' q.
Lemma sf_eq h h' q : hv_prevotes h' q = hv_prevotes h q -> same_or_fresh h h' q.
Proof. intro E. left. rewrite E. split; reflexivity. Qed.
Lemma sf_refl h q : same_or_fresh h h q. Proof. left. split; reflexivity. Qed.
Lemma sf_trans a b c q : same_or_fresh a b q -> same_or_fresh b c q -> same_or_fresh a c q.
Proof.
  intros [[E1 E1']|F1] [[E2 E2']|F2]; unfold same_or_fresh.
  - left. split; congruence.
  - right. exact F2.
  - right. unfold fresh in *. rewrite E2, E2'. exact F1.
  - right. exact F2.
Qed.
Definition MA (h : hvs) : Prop := forall r b, maj23 (hv_prevotes h r) = Some b -> any23 (hv_prevotes h r) = true.

Lemma hvs_ok_MA off h : hvs_ok VS off h -> MA h.
Proof.
  intros [_ Hs] r b. unfold hv_prevotes. destruct (zlookup r (hv_sets h)) as [rv|] eqn:El; cbn; [|discriminate].
  intro Hm. destruct (Hs _ _ El) as [(o & HI & _) _]. eapply Inv_maj_any; eauto.
Qed.

Lemma add_round_sf h r h' : hv_vals h = VS -> hv_add_round h r = Ok h' ->
  hv_vals h' = VS /\ forall q, same_or_fresh h h' q.
Proof.
  intros Hv E. apply hv_add_round_inv in E as (a & b & El & Ea & _ & ->). split; [exact Hv|]. intro q.
  unfold same_or_fresh, fresh, hv_prevotes. cbn [hv_sets].
  destruct (zlookup q (hv_sets h ++ [(r, mkRvs a b)])) as [rv|] eqn:Eq.
  - apply zlookup_app_new in Eq as [Eq|(_ & -> & ->)]; [left; rewrite Eq; split; reflexivity|right].
    rewrite Hv in Ea. exact (new_voteset_fresh VS _ _ _ Hbounded _ Ea).
  - left. destruct (zlookup q (hv_sets h)) eqn:Eq0; [|split; reflexivity].
    rewrite (zlookup_app_some _ _ _ _ Eq0) in Eq. discriminate.
Qed.

Lemma set_round_sf h r h' : hv_vals h = VS -> hv_set_round h r = Ok h' ->
  hv_vals h' = VS /\ forall q, same_or_fresh h h' q.
Proof.
  intros Hv E. revert Hv.
  apply (hv_set_round_rel (fun a b => hv_vals a = VS -> hv_vals b = VS /\ forall q, same_or_fresh a b q)) with (r := r) (h := h) (h' := h'); auto.
  - intros a Ha. split; [exact Ha|intro; apply sf_refl].
  - intros a b c Hab Hbc Ha. destruct (Hab Ha) as [Hb S1]. destruct (Hbc Hb) as [Hc S2].
    split; [exact Hc|]. intro q. eapply sf_trans; [apply S1|apply S2].
  - intros a k b Eab Ha. exact (add_round_sf _ _ _ Ha Eab).
  - intros a k Ha. split; [exact Ha|intro q; apply sf_eq; reflexivity].
Qed.

Lemma put_notadded h1 r t vs vs' : hv_get h1 r t = Some vs ->
  vs_maj23 vs' = vs_maj23 vs -> has_two_thirds_any vs' = has_two_thirds_any vs ->
  forall q, same_or_fresh h1 (hv_put h1 r t vs') q.
Proof.
  intros Hg Hm Ha q. destruct (Z.eq_dec q r) as [->|Hne].
  2:{ apply sf_eq. apply (hv_put_get_other h1 r t vs' q). congruence. }
  destruct (N.eqb t 1) eqn:Et; [|apply sf_eq; apply hv_put_cmt; exact Et].
  unfold hv_get in Hg. rewrite Et in Hg. left.
  unfold hv_put, hv_prevotes in *. destruct (zlookup r (hv_sets h1)) as [rv|] eqn:El; [|discriminate].
  cbn in Hg. injection Hg as Hg. cbn. rewrite zlookup_zupdate_eq, Et. cbn. rewrite Hg. auto.
Qed.

Lemma add_vote_sf h v peer h' a c : hv_vals h = VS -> hv_add_vote h v peer = Ok (h', a, c) ->
  hv_vals h' = VS /\ forall q, (a = true /\ q = v_round v /\ v_type v = 1%N) \/ same_or_fresh h h' q.
Proof.
  intros Hv E. apply hv_add_vote_inv in E as [[-> ->]|(h1 & vs & vs' & _ & H1 & Eg & Ea & ->)];
    [split; [exact Hv|intro; right; apply sf_refl]|].
  assert (S1 : hv_vals h1 = VS /\ forall q, same_or_fresh h h1 q).
  { destruct H1 as [->|(h2 & _ & E0 & _ & ->)]; [split; [exact Hv|intro; apply sf_refl]|].
    exact (add_round_sf _ _ _ Hv E0). }
  destruct S1 as [V1 S1]. split; [rewrite (proj1 (proj2 (hv_put_same _ _ _ _))); exact V1|]. intro q.
  destruct (Z.eq_dec q (v_round v)) as [->|Hne].
  - destruct (N.eqb (v_type v) 1) eqn:Et; [|right; eapply sf_trans; [apply S1|apply sf_eq, hv_put_cmt; exact Et]].
    destruct a; [left; split; [reflexivity|split; [reflexivity|apply N.eqb_eq; exact Et]]|right].
    destruct (add_vote_notadded _ _ _ _ Ea) as [Hm Ha]. eapply sf_trans; [apply S1|apply (put_notadded _ _ _ _ _ Eg Hm Ha)].
  - right. eapply sf_trans; [apply S1|apply sf_eq]. apply (hv_put_get_other h1 (v_round v) (v_type v) vs' q). congruence.
Qed.

Section Exempt.
Variable X : Z -> Prop.
Definition I1 (n : node) : Prop := forall lb r b, lblock n = Some lb -> ~ X r -> lround n < r -> r <= round n ->
  maj23 (hv_prevotes (votes n) r) = Some b -> hashes_to (Some lb) (b_hash b) = true.
Definition I2 (n : node) : Prop := forall r, ~ X r -> round n < r -> any23 (hv_prevotes (votes n) r) = false.
(* I2 and MA are there for K_step: when the node moves forward they exclude a polka in the rounds it
   passes over, for which I1 would otherwise have nothing to say *)
Record K (n : node) : Prop := mkK { k_vals : hv_vals (votes n) = VS; k1 : I1 n; k2 : I2 n; k_ma : MA (votes n) }.

(* the shape every such action has: vote sets as above, the round not lower, the lock kept, dropped, or
   taken in the round the node is then in *)
Definition stepS (n n' : node) : Prop :=
  hv_vals (votes n') = VS /\ (forall q, same_or_fresh (votes n) (votes n') q) /\ round n <= round n' /\
  ((lblock n' = lblock n /\ lround n' = lround n) \/ lblock n' = None \/ lround n' = round n').

Lemma K_step n n' : K n -> stepS n n' -> K n'.
Proof.
  intros [Kv K1 K2 Kma] (Hv & Hsf & Hr & Hl).
  assert (Hma : MA (votes n')).
  { intros r b Hm. destruct (Hsf r) as [[Em Ea]|[_ F]]; [rewrite Ea; rewrite Em in Hm; apply (Kma r b Hm)|congruence]. }
  assert (H2 : I2 n').
  { intros q Hx Hq. destruct (Hsf q) as [[_ Ea]|[F _]]; [rewrite Ea; apply K2; [exact Hx|lia]|exact F]. }
  split; [exact Hv| |exact H2|exact Hma].
  intros lb r b El Hx Hlr Hrd Hm.
  destruct Hl as [[Hl1 Hl2]|[Hl|Hl]]; [|congruence|lia].
  destruct (Hsf r) as [[Em _]|[_ F]]; [|congruence]. rewrite Em in Hm.
  destruct (Z_le_gt_dec r (round n)) as [Hle|Hgt].
  - apply (K1 lb r b); [congruence|exact Hx|lia|exact Hle|exact Hm].
  - pose proof (K2 r Hx ltac:(lia)) as Hany. rewrite (Kma r b Hm) in Hany. discriminate.
Qed.

Lemma act_stepS reached n o n' : hv_vals (votes n) = VS -> act reached [] n o n' -> stepS n n'.
Proof.
  intros Hv Ha. destruct (act_keeps _ _ _ _ _ Ha) as [_ Hr].
  assert (Hl : (lblock n' = lblock n /\ lround n' = lround n) \/ lblock n' = None \/ lround n' = round n') by apply (act_lock _ _ _ _ _ Ha).
  destruct (act_votes _ _ _ _ _ Ha) as [Ev|[(k & Ev)|(v & _ & _ & _ & [] & _)]].
  - split; [rewrite Ev; exact Hv|]. split; [intro q; apply sf_eq; rewrite Ev; reflexivity|auto].
  - destruct (set_round_sf _ _ _ Hv Ev) as (V & S). split; [exact V|]. split; [exact S|auto].
Qed.
Lemma acts_K reached n o n' : acts reached [] n o n' -> K n -> K n'.
Proof. induction 1 as [|n o1 m o2 n' H1 _ IH]; [auto|]. intro Hk. apply IH. eapply K_step; [exact Hk|eapply act_stepS; [apply Hk|exact H1]]. Qed.

(* where an input leaves a node of height h0 *)
Definition Out (n' : node) : Prop := (height n' = h0 /\ K n') \/ height n' = h0 + 1.

Lemma trace_K reached c n o n' : c_skip_commit c = false -> trace reached [] c n o n' -> height n = h0 -> K n -> Out n'.
Proof.
  intros Hs [? ? ? Ha|? o1 m h m' o2 o3 ? Ha Hf Hne _ Hq] Hh Hk.
  - left. split; [rewrite (proj1 (acts_keeps _ _ _ _ _ Ha)); exact Hh|eapply acts_K; eauto].
  - right. destruct (Hq Hs) as [-> _]. apply acts_keeps in Ha as [Hm _].
    apply finalize_commit_next in Hf as [[-> _]|(Hn & _)]; [contradiction|lia].
Qed.

End Exempt.

Notation K0 := (K (fun _ => False)).
Notation Out0 := (Out (fun _ => False)).

Lemma enter_precommit_lock h r n n' o b : enter_precommit h r n = Ok (n', o) ->
  negb (height n =? h) || (r <? round n) || ((round n =? r) && (6 <=? step n)) = false ->
  maj23 (hv_prevotes (votes n) r) = Some b -> round n' = r /\ (lblock n' = None \/ lround n' = r).
Proof.
  intros E Eg Hm. apply (enter_precommit_open _ _ _ _ _ Eg) in E as (m & vb & n2 & Hc & Es & ->).
  destruct (fsat_sign_add_vote _ _ _ _ _ Es) as (_ & _ & A & B & _). cbn. rewrite A, B. split; [reflexivity|].
  destruct Hc as [Em| | | |]; [congruence|destruct (lblock n) eqn:El; cbn; auto|cbn; auto..].
Qed.

Lemma K_insert n hv R : K0 n -> hv_vals hv = VS -> MA hv ->
  (forall q, q <> R -> same_or_fresh (votes n) hv q) -> K (eq R) (set_votes n hv).
Proof.
  intros [Kv K1 K2 Kma] Hv Hma Hsf. split; [exact Hv| | |exact Hma].
  - intros lb r b El Hx Hlr Hrd Hm. cbn in *.
    destruct (Hsf r ltac:(congruence)) as [[Em _]|[_ F]]; [|congruence]. rewrite Em in Hm.
    apply (K1 lb r b); auto.
  - intros q Hx Hq. cbn in *. destruct (Hsf q ltac:(congruence)) as [[_ Ea]|[F _]]; [rewrite Ea; apply K2; auto|exact F].
Qed.

Lemma K_exempt (X : Z -> Prop) n : K0 n -> K X n.
Proof. intros [Kv K1 K2 Kma]. split; [exact Kv| | |exact Kma]; [intros lb r b El _; apply (K1 lb r b El); tauto|intros r _; apply K2; tauto]. Qed.

Lemma close_reached R n : K (eq R) n -> R <= round n ->
  (forall lb b, lblock n = Some lb -> lround n < R -> maj23 (hv_prevotes (votes n) R) = Some b -> hashes_to (Some lb) (b_hash b) = true) ->
  K0 n.
Proof.
  intros [Kv K1 K2 Kma] Hr HR. split; [exact Kv| | |exact Kma].
  - intros lb r b El _ Hlr Hrd Hm. destruct (Z.eq_dec R r) as [<-|Hne]; [eapply HR; eauto|apply (K1 lb r b); auto].
  - intros q _ Hq. apply K2; [intro; lia|exact Hq].
Qed.
Lemma close_ahead R n : K (eq R) n -> round n < R -> any23 (hv_prevotes (votes n) R) = false -> K0 n.
Proof.
  intros [Kv K1 K2 Kma] Hr Ha. split; [exact Kv| | |exact Kma].
  - intros lb r b El _ Hlr Hrd Hm. apply (K1 lb r b); auto. intro; lia.
  - intros q _ Hq. destruct (Z.eq_dec R q) as [<-|Hne]; [exact Ha|apply K2; auto].
Qed.

Lemma rule_K n1 R : K (eq R) n1 -> R <= round n1 -> K0 (unlock_rule n1 R).
Proof.
  intros Hk Hr. destruct (unlock_rule_cases n1 R) as [[-> _]|[-> Hkeep]].
  - apply (close_reached R); [|exact Hr|intros lb0 b0 E; cbn in E; discriminate].
    eapply K_step; [exact Hk|]. split; [apply Hk|]. split; [intro q; apply sf_refl|]. split; [cbn; lia|]. right. left. reflexivity.
  - apply (close_reached R); [exact Hk|exact Hr|]. intros lb b El Hlt Hm. apply (Hkeep lb b El); [lia|exact Hm].
Qed.

Lemma rule_noop n1 R : round n1 < R -> unlock_rule n1 R = n1.
Proof. intro H. destruct (unlock_rule_cases n1 R) as [[_ (lb & b & _ & Hr & _)]|[E _]]; [lia|exact E]. Qed.

Lemma insert_K off n v peer hv added code : node_ok VS h0 off n -> height n = h0 -> K0 n ->
  hv_add_vote (votes n) v peer = Ok (hv, added, code) ->
  K0 (set_votes n hv) \/ (added = true /\ v_type v = 1%N /\ K (eq (v_round v)) (set_votes n hv)).
Proof.
  intros Hok Hh Hk Ea. destruct (add_vote_sf _ _ _ _ _ _ (k_vals _ _ Hk) Ea) as (Hv1 & Hsf).
  destruct added; [destruct (N.eq_dec (v_type v) 1) as [Et|Et]|]; [right; split; [reflexivity|split; [exact Et|]]|left|left].
  - apply K_insert; [exact Hk|exact Hv1| |].
    + destruct Hok as [_ Hok]. destruct (Hok Hh) as [Hok1 _].
      destruct (hv_add_vote_ok VS Hbounded _ _ _ _ _ _ _ Hok1 Ea) as [Hok2 _]. eapply hvs_ok_MA; exact Hok2.
    + intros q Hq. destruct (Hsf q) as [(_ & E & _)|S]; [contradiction|exact S].
  - eapply K_step; [exact Hk|]. split; [exact Hv1|]. split; [|split; [cbn; lia|left; split; reflexivity]].
    intro q. destruct (Hsf q) as [(_ & _ & E)|S]; [contradiction|exact S].
  - eapply K_step; [exact Hk|]. split; [exact Hv1|]. split; [|split; [cbn; lia|left; split; reflexivity]].
    intro q. destruct (Hsf q) as [(E & _)|S]; [discriminate|exact S].
Qed.

(* the exemption of R is closed by the release rule (R not ahead of the node), or because round R
   has no +2/3 of any (the node stays), or - the node moves to round R - by the lock taken or dropped
   there, or by the absence of a majority *)
Lemma on_prevote_K R n1 n5 o : K (eq R) n1 -> height n1 = h0 -> step n1 < 8 ->
  on_prevote h0 R n1 = Ok (n5, o) -> Out0 n5.
Proof.
  intros Kx1 Hh Hu Eb.
  assert (Hrest : K0 (unlock_rule n1 R) -> Out0 n5).
  { intro Kn2. left. apply (on_prevote_rest False []) in Eb; [|exact Hh].
    split; [|eapply acts_K; eauto]. apply acts_keeps in Eb as [-> _]. rewrite (proj1 (unlock_rule_same n1 R)). exact Hh. }
  destruct (Z_le_gt_dec R (round n1)) as [Hle|Hgt]; [apply Hrest, rule_K; [exact Kx1|exact Hle]|].
  assert (En2 : unlock_rule n1 R = n1) by (apply rule_noop; lia).
  destruct (any23 (hv_prevotes (votes n1) R)) eqn:Eany.
  2:{ apply Hrest. rewrite En2. apply (close_ahead R); [exact Kx1|lia|exact Eany]. }
  revert Eb. unfold on_prevote, any23_open. cbn zeta. rewrite En2, Eany.
  replace (round n1 <=? R) with true by (symmetry; apply Z.leb_le; lia).
  replace (step n1 <? 8) with true by (symmetry; apply Z.ltb_lt; exact Hu). cbn [andb]. intro Eb.
  apply bind_ok in Eb as (n3 & oa & ob & Ea1 & Ea2 & _).
  assert (K3 : K (eq R) n3) by (eapply acts_K; [eapply (enter_new_round_acts False); exact Ea1|exact Kx1]).
  assert (H3 : height n3 = h0) by (apply (enter_new_round_acts False []), acts_keeps in Ea1 as [-> _]; exact Hh).
  destruct (proj2 (enter_new_round_reaches h0 R n1 n3 oa Hh Ea1) ltac:(lia)) as (Hr3 & Hs3). specialize (Hs3 ltac:(lia)).
  revert Ea2. destruct (maj23 (hv_prevotes (votes n3) R)) as [b|] eqn:Em3; intro Ea2.
  - destruct (enter_precommit_lock _ _ _ _ _ b Ea2) as (Hr4 & Hl4); [|exact Em3|].
    { (* the guard of enter_precommit is open: same height and round, step at most 4 *)
      rewrite H3, Hr3, Z.eqb_refl, Z.ltb_irrefl, Z.eqb_refl. cbn. apply Z.leb_gt. lia. }
    assert (A5 : acts False [] n3 ob n5) by (apply acts_one; eapply a_precommit; [exact Ea2|intros []]).
    left. split; [apply acts_keeps in A5 as [-> _]; exact H3|].
    apply (close_reached R); [eapply acts_K; eauto|lia|]. intros lb b0 El Hlt _. destruct Hl4 as [Hl4|Hl4]; [congruence|lia].
  - apply bind_ok in Ea2 as (n4 & oc & od & Eb1 & Eb2 & _).
    assert (A5 : acts False [] n3 (oc ++ od) n5).
    { eapply acts_app; [eapply enter_prevote_acts; exact Eb1|apply acts_idle; eapply enter_prevote_wait_idle; exact Eb2]. }
    left. split; [apply acts_keeps in A5 as [-> _]; exact H3|].
    apply (close_reached R); [eapply acts_K; eauto|apply acts_keeps in A5; lia|].
    intros lb b0 _ _ Hm. apply enter_prevote_wait_idle in Eb2 as ((_ & Fv5 & _) & _).
    rewrite Fv5, (enter_prevote_votes _ _ _ _ _ Eb1), Em3 in Hm. discriminate.
Qed.

Lemma add_vote_cs_K off c v peer n n' o : c_skip_commit c = false -> node_ok VS h0 off n ->
  height n = h0 -> step n < 8 -> K0 n -> add_vote_cs c v peer n = Ok (n', o) -> Out0 n'.
Proof.
  intros Hskip Hok Hh Hu Hk E. apply add_vote_cs_cases in E as [[_ E]|[(_ & hv & added & code & Ea & E)|(_ & -> & _)]]; [|rewrite Hh in E|left; auto].
  { apply (on_last_commit_acts False []) in E. left. split; [apply acts_keeps in E as [-> _]; exact Hh|eapply acts_K; eauto]. }
  apply bind_ok in E as (n5 & o1 & o2 & Eb & Ec & _). apply report_idle in Ec as [-> _].
  destruct (insert_K off n v peer hv added code Hok Hh Hk Ea) as [Kn1|(-> & Et & Kx1)].
  - (* not an added prevote: nothing has to be closed *)
    revert Eb. destruct (negb added); [intro Eb; injection Eb as <- _; left; auto|].
    destruct (N.eqb (v_type v) 1); [intro Eb; exact (on_prevote_K _ _ _ _ (K_exempt _ _ Kn1) Hh Hu Eb)|].
    destruct (N.eqb (v_type v) 2); [|discriminate].
    intro Eb. exact (trace_K _ False c _ _ _ Hskip (on_precommit_trace False [] c h0 _ (set_votes n hv) _ _ Hh Eb) Hh Kn1).
  - rewrite Et in Eb. exact (on_prevote_K _ _ _ _ Kx1 Hh Hu Eb).
Qed.

Lemma handle_K off c i n n' o : c_skip_commit c = false -> node_ok VS h0 off n ->
  height n = h0 -> step n < 8 -> K0 n -> handle c i n = Ok (n', o) -> Out0 n'.
Proof.
  intros Hskip Hok Hh Hu Hk E.
  assert (Hq : (forall v peer, i <> IVote v peer) -> Out0 n').
  { intro Hv. assert (Ht : trace False [] c n o n').
    { eapply handle_trace; [intros ? ? ? _ []|intros v peer H; destruct (Hv _ _ H)|exact E]. }
    exact (trace_K _ _ _ _ _ _ Hskip Ht Hh Hk). }
  destruct i as [p sgn peer|h r idx b dec peer|v peer|h r s]; try (apply Hq; discriminate).
  exact (add_vote_cs_K off c v peer n n' o Hskip Hok Hh Hu Hk E).
Qed.

(* the node has not decided: before every input it is below the commit step.  A node in the commit
   step has +2/3 precommits for a block and only waits for the block; it does not follow later rounds
   (Model/Node.v [any23_open]), so its lock and the rounds ahead of it are of no interest *)
Fixpoint undecided_run (c : cfg) (ins : list input) (n : node) : Prop :=
  match ins with
  | [] => True
  | i :: t => step n < 8 /\ match handle c i n with Ok (n1, _) => undecided_run c t n1 | _ => True end
  end.

Lemma run_K c ins : c_skip_commit c = false -> forall off n n', node_ok VS h0 off n ->
  (height n = h0 -> K0 n) -> run c ins n = Ok n' -> undecided_run c ins n -> height n' = h0 -> K0 n'.
Proof.
  intro Hskip. induction ins as [|i t IH]; intros off n n' Hok Hk; cbn [run undecided_run].
  - intros E _ Hh. injection E as <-. auto.
  - destruct (handle c i n) as [[n1 o1]| |] eqn:E1; try discriminate. intros E [Hu Hrest] Hh.
    pose proof (trace_height _ _ _ _ _ _ (handle_trace_any _ _ _ _ _ E1)) as Hmono.
    eapply IH; [exact (handle_ok VS Hbounded h0 off c i n n1 o1 Hok E1)| |exact E|exact Hrest|exact Hh].
    intro Hh1. assert (Heq : height n = h0) by (destruct Hok as [Hlow _]; lia).
    destruct (handle_K off c i n n1 o1 Hskip Hok Heq Hu (Hk Heq) E1) as [[_ K1']|Hn]; [exact K1'|lia].
Qed.

Lemma init_K vs lc me s n0 : vals_of vs = VS -> init_node h0 vs lc me s = Ok n0 -> K0 n0.
Proof.
  intros Hv. unfold init_node. rewrite Hv. destruct (new_hvs h0 VS) as [hv| |] eqn:E; try discriminate.
  intro E0. injection E0 as <-. unfold new_hvs in E.
  destruct (add_round_sf (mkHvs h0 VS 0 [] []) 0 hv eq_refl E) as (V & S).
  assert (Hnone : forall q, any23 (hv_prevotes hv q) = false /\ maj23 (hv_prevotes hv q) = None).
  { intro q. destruct (S q) as [[Em Ea]|[Fa Fm]]; [|auto]. rewrite Em, Ea. split; reflexivity. }
  split; cbn [votes lblock lround round].
  - exact V.
  - intros lb r b El. discriminate.
  - intros q _ _. apply Hnone.
  - intros r b Hm. rewrite (proj2 (Hnone r)) in Hm. discriminate.
Qed.

Theorem no_stale_lock c vs lc me s ins n0 n : c_skip_commit c = false -> vals_of vs = VS ->
  init_node h0 vs lc me s = Ok n0 -> run c ins n0 = Ok n -> undecided_run c ins n0 -> height n = h0 ->
  (forall lb r b, lblock n = Some lb -> lround n < r -> r <= round n ->
     maj23 (hv_prevotes (votes n) r) = Some b -> hashes_to (Some lb) (b_hash b) = true) /\
  (forall r, round n < r -> any23 (hv_prevotes (votes n) r) = false).
Proof.
  intros Hskip Hv E0 Er Hu Hh.
  assert (Hk : K0 n).
  { eapply (run_K c ins Hskip [] n0 n); [eapply init_ok; eauto| |exact Er|exact Hu|exact Hh].
    intros _. eapply init_K; eauto. }
  destruct Hk as [_ K1 K2 _]. split.
  - intros lb r b El Hlr Hrd Hm. apply (K1 lb r b); auto.
  - intros r Hr. apply K2; auto.
Qed.

End NoStaleLock.
