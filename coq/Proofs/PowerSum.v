(* Weighted sums over validator indices, int64 wrap-around, and quorum arithmetic. *)
From Coq Require Import List NArith ZArith Lia Bool.
From AnnVerif Require Import Base.Bytes Model.VoteSet Proofs.BytesProofs.
Import ListNotations.
Open Scope Z_scope.


Fixpoint pow_from (k : nat) (vals : list validator) (P : nat -> bool) : Z :=
  match vals with
  | [] => 0
  | (_, p) :: t => (if P k then p else 0) + pow_from (S k) t P
  end.
Definition pow_of (vals : list validator) (P : nat -> bool) : Z := pow_from 0 vals P.

Definition nonneg (vals : list validator) : Prop := Forall (fun v => 0 <= snd v) vals.

Lemma pow_from_ext k vals P Q :
  (forall i, (k <= i < k + length vals)%nat -> P i = Q i) -> pow_from k vals P = pow_from k vals Q.
Proof.
  revert k; induction vals as [|[a p] t IH]; intros k H; simpl; [reflexivity|].
  rewrite (H k) by (simpl; lia). f_equal. apply IH. intros i Hi. apply H. simpl. lia.
Qed.

Lemma pow_from_mono k vals P Q : nonneg vals ->
  (forall i, (k <= i < k + length vals)%nat -> P i = true -> Q i = true) -> pow_from k vals P <= pow_from k vals Q.
Proof.
  intros Hn. revert k; induction vals as [|[a p] t IH]; intros k H; simpl; [lia|].
  inversion Hn as [|? ? Hp Ht]; subst. simpl in Hp.
  assert (IH' := IH Ht (S k) ltac:(intros i Hi; apply H; simpl; lia)).
  destruct (P k) eqn:EP.
  - rewrite (H k) by (auto; simpl; lia). lia.
  - destruct (Q k); lia.
Qed.

Lemma pow_from_false k vals : pow_from k vals (fun _ => false) = 0.
Proof. revert k; induction vals as [|[a p] t IH]; intro k; simpl; [reflexivity|]. apply IH. Qed.

Lemma pow_from_nonneg k vals P : nonneg vals -> 0 <= pow_from k vals P.
Proof. intro Hn. rewrite <- (pow_from_false k vals). apply pow_from_mono; [exact Hn|discriminate]. Qed.

Lemma pow_from_le_total k vals P : nonneg vals -> pow_from k vals P <= pow_from k vals (fun _ => true).
Proof. intro Hn. apply pow_from_mono; auto. Qed.

Lemma pow_from_set k vals P i pw a :
  (k <= i)%nat -> nth_error vals (i - k) = Some (a, pw) -> P i = false ->
  pow_from k vals (fun j => if Nat.eqb j i then true else P j) = pow_from k vals P + pw.
Proof.
  revert k; induction vals as [|[a' p] t IH]; intros k Hk Hn HP; simpl.
  - destruct (i - k)%nat; discriminate.
  - destruct (Nat.eq_dec k i) as [->|Hne].
    + rewrite Nat.sub_diag in Hn. simpl in Hn. injection Hn as -> ->.
      rewrite Nat.eqb_refl, HP.
      rewrite (pow_from_ext (S i) t _ P); [lia|].
      intros j Hj. destruct (Nat.eqb_spec j i); [lia|reflexivity].
    + destruct (Nat.eqb_spec k i); [contradiction|].
      rewrite IH; [lia|lia| |assumption].
      replace (i - k)%nat with (S (i - S k)) in Hn by lia. exact Hn.
Qed.

Lemma pow_from_shift k vals P : pow_from (S k) vals P = pow_from k vals (fun i => P (S i)).
Proof. revert k; induction vals as [|[a p] t IH]; intro k; simpl; [reflexivity|]. rewrite IH. reflexivity. Qed.

Lemma pow_from_pos_exists k vals P : 0 < pow_from k vals P -> exists i, (k <= i < k + length vals)%nat /\ P i = true.
Proof.
  revert k; induction vals as [|[a p] t IH]; intros k Hp; simpl in Hp; [lia|].
  destruct (P k) eqn:EP.
  - exists k. simpl. split; [lia|exact EP].
  - destruct (IH (S k)) as (i & Hi & HP); [lia|]. exists i. simpl. split; [lia|exact HP].
Qed.

Lemma total_power_fold vals acc : nonneg vals -> 0 <= acc ->
  acc + pow_from 0 vals (fun _ => true) < 9223372036854775808 ->
  fold_left (fun a v => wrap64 (a + snd v)) vals acc = acc + pow_from 0 vals (fun _ => true).
Proof.
  intros Hn. revert acc.
  induction vals as [|[a p] t IH]; intros acc Hacc Hb; simpl; [lia|].
  inversion Hn as [|? ? Hp Ht]; subst. simpl in Hp, Hb. rewrite pow_from_shift in *.
  assert (H0 := pow_from_nonneg 0 t (fun _ => true) Ht).
  rewrite wrap64_small by lia. rewrite IH by (auto; lia). lia.
Qed.

Lemma total_power_spec vals : nonneg vals -> pow_of vals (fun _ => true) < 9223372036854775808 ->
  total_power vals = pow_of vals (fun _ => true).
Proof.
  intros Hn Hb. unfold total_power. rewrite total_power_fold; auto; unfold pow_of in *; lia.
Qed.

(* below 2^62 the product TotalVotingPower()*2 in [two_thirds] does not wrap *)
Definition bounded (vals : list validator) : Prop :=
  nonneg vals /\ pow_of vals (fun _ => true) < 4611686018427387904.

Lemma two_thirds_spec vals : bounded vals ->
  two_thirds vals = pow_of vals (fun _ => true) * 2 / 3.
Proof.
  intros [Hn Hb]. unfold two_thirds. rewrite total_power_spec by (auto; lia).
  assert (H0 := pow_from_nonneg 0 vals (fun _ => true) Hn). unfold pow_of in *.
  rewrite wrap64_small by lia. apply Z.quot_div_nonneg; lia.
Qed.

Lemma two_thirds_nonneg vals : bounded vals -> 0 <= two_thirds vals.
Proof.
  intro Hb. rewrite two_thirds_spec by assumption. destruct Hb as [Hn _].
  assert (H0 := pow_from_nonneg 0 vals (fun _ => true) Hn). apply Z.div_pos; unfold pow_of; lia.
Qed.

Lemma quorum_spec vals : bounded vals -> quorum vals = two_thirds vals + 1.
Proof.
  intros Hb. unfold quorum. assert (H0 := two_thirds_nonneg vals Hb).
  rewrite two_thirds_spec in * by assumption. destruct Hb as [Hn Hb].
  assert (H1 := pow_from_nonneg 0 vals (fun _ => true) Hn). unfold pow_of in *.
  assert (pow_from 0 vals (fun _ => true) * 2 / 3 <= pow_from 0 vals (fun _ => true) * 2) by (apply Z.div_le_upper_bound; lia).
  apply wrap64_small. lia.
Qed.

Lemma quorum_pos vals : bounded vals -> 0 < quorum vals.
Proof. intro Hb. rewrite quorum_spec by assumption. pose proof (two_thirds_nonneg vals Hb). lia. Qed.

Lemma quorum_intersection vals P Q : bounded vals ->
  two_thirds vals < pow_of vals P -> two_thirds vals < pow_of vals Q ->
  pow_of vals (fun _ => true) < 3 * pow_of vals (fun i => P i && Q i).
Proof.
  intros Hb HP HQ. rewrite two_thirds_spec in * by assumption. destruct Hb as [Hn Hb].
  assert (Hunion : forall k vs, pow_from k vs P + pow_from k vs Q = pow_from k vs (fun i => P i && Q i) + pow_from k vs (fun i => P i || Q i)).
  { intros k vs; revert k; induction vs as [|[a p] t IH]; intros k; simpl; [reflexivity|].
    specialize (IH (S k)). destruct (P k), (Q k); simpl; lia. }
  unfold pow_of in *. specialize (Hunion 0%nat vals).
  assert (Hle : pow_from 0 vals (fun i => P i || Q i) <= pow_from 0 vals (fun _ => true)) by (apply pow_from_le_total; assumption).
  set (T := pow_from 0 vals (fun _ => true)) in *.
  assert (HT : T * 2 / 3 * 3 > T * 2 - 3) by (pose proof (Z.div_mod (T * 2) 3 ltac:(lia)); pose proof (Z.mod_pos_bound (T * 2) 3 ltac:(lia)); lia).
  lia.
Qed.
