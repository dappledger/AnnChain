(* Invariants of the interpreter model (Model/EvmCore.v), for every program, every environment and
   every run length:
   - the stack never holds more than 1024 words;
   - the program counter is always at the start of an instruction (never inside the operand of a
     PUSH): a jump lands only on a JUMPDEST byte that the code analysis marks as an instruction.
   At the end, a program that does run into the stack limit. *)
From Coq Require Import ZArith Bool List Lia.
From AnnVerif Require Import Model.EvmArith Model.EvmCore.
Import ListNotations.
Open Scope Z_scope.

(* the stack limit under a name: the numeral is a term of 1024 constructors, and every proof step
   on a goal that shows it has to go through them *)
Definition stack_limit : nat := 1024.

Lemma step_inv e code m m' : step e code m = inl m' ->
  exists i m1 f pc,
    i = decode (nth (m_pc m) code 0) /\
    (fst (kind i) <= length (m_stack m))%nat /\ (length (m_stack m) + snd (kind i) - fst (kind i) <= stack_limit)%nat /\
    sized i m = inl m1 /\ exec e code i m1 = inl f /\
    m' = mkM pc (f_outs f ++ skipn (fst (kind i)) (m_stack m)) (f_mem f) (f_store f) (f_logs f) /\
    match f_pc f with
    | PNext => pc = S (m_pc m)
    | PSkip n => pc = (m_pc m + 1 + n)%nat
    | PJump d => valid_dest code d = true /\ pc = Z.to_nat d
    end.
Proof.
  unfold step, stack_limit. generalize 1024%nat. intro lim. set (i := decode (nth (m_pc m) code 0)).
  destruct (Nat.ltb_spec (length (m_stack m)) (fst (kind i))) as [|Hp]; [discriminate|].
  destruct (Nat.ltb_spec lim (length (m_stack m) + snd (kind i) - fst (kind i))) as [|Hq]; [discriminate|].
  destruct (sized i m) as [m1|] eqn:Es; [|discriminate].
  destruct (exec e code i m1) as [f|] eqn:Ex; [|discriminate].
  intro E. exists i, m1, f.
  destruct (f_pc f) as [|n|d]; [| |destruct (valid_dest code d); [|discriminate]]; injection E as <-.
  - exists (S (m_pc m)). auto 10.
  - exists (m_pc m + 1 + n)%nat. auto 10.
  - exists (Z.to_nat d). auto 10.
Qed.

(* [i] is a [let], so that on a given code and program counter the premises compute *)
Lemma step_intro e code m m' m1 f pc : let i := decode (nth (m_pc m) code 0) in
  (fst (kind i) <= length (m_stack m))%nat -> (length (m_stack m) + snd (kind i) - fst (kind i) <= stack_limit)%nat ->
  sized i m = inl m1 -> exec e code i m1 = inl f ->
  m' = mkM pc (f_outs f ++ skipn (fst (kind i)) (m_stack m)) (f_mem f) (f_store f) (f_logs f) ->
  match f_pc f with
  | PNext => pc = S (m_pc m)
  | PSkip n => pc = (m_pc m + 1 + n)%nat
  | PJump d => valid_dest code d = true /\ pc = Z.to_nat d
  end ->
  step e code m = inl m'.
Proof.
  intro i. unfold step, stack_limit. fold i. generalize 1024%nat. intros lim Hp Hq Es Ex -> Hpc.
  rewrite (proj2 (Nat.ltb_ge _ _) Hp), (proj2 (Nat.ltb_ge _ _) Hq), Es, Ex.
  destruct (f_pc f) as [|n|d]; [subst pc; reflexivity|subst pc; reflexivity|]. destruct Hpc as [-> ->]. reflexivity.
Qed.

Lemma step_overflow e code m : let i := decode (nth (m_pc m) code 0) in
  (stack_limit < length (m_stack m) + snd (kind i) - fst (kind i))%nat -> step e code m = inr OFail.
Proof.
  intro i. unfold step, stack_limit. fold i. generalize 1024%nat. intros lim H.
  destruct (Nat.ltb (length (m_stack m)) (fst (kind i))); [reflexivity|]. rewrite (proj2 (Nat.ltb_lt _ _) H). reflexivity.
Qed.

Lemma sized_stack i m m1 : sized i m = inl m1 -> m_stack m1 = m_stack m.
Proof. unfold sized. destruct (instr_mem _ _); intro E; try discriminate; injection E as <-; reflexivity. Qed.

Lemma exec_outs e code i m f : exec e code i m = inl f -> (fst (kind i) <= length (m_stack m))%nat ->
  length (f_outs f) = snd (kind i).
Proof.
  destruct i; cbn [exec kind fst snd]; intros E Hl; try (injection E as <-; reflexivity); try discriminate.
  - destruct (eval _ _ _ _); [injection E as <-; reflexivity|discriminate].
  - destruct (_ =? 0); [injection E as <-; reflexivity|discriminate].
  - injection E as <-. cbn [f_outs length]. rewrite firstn_length. lia.
  - injection E as <-. cbn [f_outs length]. rewrite app_length, firstn_length. destruct (m_stack m) as [|x t]; cbn [length skipn] in *; lia.
Qed.

Theorem step_stack_bound e code m m' : step e code m = inl m' -> (length (m_stack m') <= stack_limit)%nat.
Proof.
  intro E. destruct (step_inv _ _ _ _ E) as (i & m1 & f & pc & _ & Hp & Hq & Es & Ex & -> & _).
  cbn [m_stack]. rewrite app_length, skipn_length, (exec_outs _ _ _ _ _ Ex) by (rewrite (sized_stack _ _ _ Es); exact Hp). lia.
Qed.

Definition at_start (code : list Z) (pc : nat) : Prop :=
  (length code <= pc)%nat \/ nth pc (code_starts code 0) false = true.

(* the number of operand bytes that the code analysis ([code_starts]) skips after byte [b] *)
Definition push_len (b : Z) : nat := if (96 <=? b) && (b <=? 127) then Z.to_nat (b - 95) else 0%nat.

Lemma starts_after_skip : forall n t, (length t <= n)%nat \/ nth n (code_starts t n) false = true.
Proof.
  induction n as [|k IH]; intros [|b t]; cbn; try (left; lia); [right; reflexivity|].
  destruct (IH t) as [H|H]; [left; lia|right; exact H].
Qed.

Lemma starts_next l : forall skip pc, nth pc (code_starts l skip) false = true ->
  (length l <= pc + 1 + push_len (nth pc l 0%Z))%nat \/ nth (pc + 1 + push_len (nth pc l 0%Z)) (code_starts l skip) false = true.
Proof.
  induction l as [|b t IH]; intros skip pc; [destruct skip, pc; discriminate|].
  destruct pc as [|p].
  - (* an instruction starts here only if nothing is being skipped; the next one follows its operand *)
    destruct skip as [|k]; cbn [code_starts nth]; [intros _|discriminate].
    fold (push_len b). cbn [Nat.add nth length].
    destruct (starts_after_skip (push_len b) t) as [H|H]; [left; lia|right; exact H].
  - (* further on: the same question about the tail, whatever is skipped there *)
    destruct skip as [|k]; cbn [code_starts nth Nat.add length].
    all: intro H; destruct (IH _ p H) as [A|A]; [left; lia|right; exact A].
Qed.

(* the jump table ([decode]) and the code analysis agree on which bytes are PUSH1..PUSH32 and on how
   many operand bytes follow.  One way round by going through the table's tests (only the PUSH line
   can give an [IPush]), the other by trying the 32 opcodes. *)
Lemma if_eq_inv {A} (c : bool) (x y v : A) (P : Prop) : (x = v -> P) -> (y = v -> P) -> (if c then x else y) = v -> P.
Proof. destruct c; auto. Qed.
Lemma decode_push b n : decode b = IPush n -> push_len b = n.
Proof.
  unfold decode, push_len. destruct ((96 <=? b) && (b <=? 127)).
  all: repeat (apply if_eq_inv; [intro E; discriminate E|]).
  all: intro E; try discriminate E; injection E as <-; reflexivity.
Qed.
Lemma decode_push_op n : (n < 32)%nat -> decode (96 + Z.of_nat n) = IPush (S n).
Proof. intro H. do 32 (destruct n as [|n]; [reflexivity|]). lia. Qed.
Lemma decode_not_push b : (forall n, decode b <> IPush n) -> push_len b = 0%nat.
Proof.
  intro H. unfold push_len. destruct ((96 <=? b) && (b <=? 127)) eqn:E; [exfalso|reflexivity].
  apply (H (S (Z.to_nat (b - 96)))). rewrite <- decode_push_op by lia. f_equal. lia.
Qed.
Lemma push_len_le b : (push_len b <= 32)%nat.
Proof. unfold push_len. destruct ((96 <=? b) && (b <=? 127)) eqn:E; lia. Qed.

Lemma exec_pc e code i m f : exec e code i m = inl f ->
  match f_pc f with PNext => forall n, i <> IPush n | PSkip n => i = IPush n | PJump _ => True end.
Proof.
  destruct i; cbn [exec]; intro E; try discriminate; try (injection E as <-; cbn; intros; discriminate); try (injection E as <-; cbn; auto; fail).
  - destruct (eval _ _ _ _); [injection E as <-; cbn; intros; discriminate|discriminate].
  - destruct (_ =? 0); [injection E as <-; cbn; intros; discriminate|discriminate].
  - injection E as <-. cbn. destruct (_ =? 0); [intros; discriminate|exact I].
Qed.

(* beyond the end of the code every byte reads as STOP, which does not go on *)
Lemma step_pc_in e code m m' : step e code m = inl m' -> (m_pc m < length code)%nat.
Proof.
  intro E. destruct (step_inv _ _ _ _ E) as (i & m1 & f & pc & Hi & _ & _ & _ & Ex & _).
  destruct (Nat.lt_ge_cases (m_pc m) (length code)) as [L|G]; [exact L|exfalso].
  rewrite nth_overflow in Hi by exact G. subst i. discriminate Ex.
Qed.

Theorem jump_lands_on_jumpdest code d : valid_dest code d = true ->
  nth (Z.to_nat d) code 0 = 91 /\ at_start code (Z.to_nat d).
Proof.
  unfold valid_dest. destruct (d <? _); [|discriminate]. intros [E1 E2]%andb_prop.
  split; [lia|right; exact E2].
Qed.

Theorem step_at_start e code m m' : step e code m = inl m' -> at_start code (m_pc m) -> at_start code (m_pc m').
Proof.
  intros E [Hend|Hst]; [pose proof (step_pc_in _ _ _ _ E); lia|].
  destruct (step_inv _ _ _ _ E) as (i & m1 & f & pc & Hi & _ & _ & _ & Ex & -> & Hpc). cbn [m_pc].
  pose proof (exec_pc _ _ _ _ _ Ex) as Hi'. rewrite Hi in Hi'.
  pose proof (starts_next code 0 (m_pc m) Hst) as Hn.
  destruct (f_pc f) as [|n|d].
  - subst pc. rewrite (decode_not_push _ Hi'), Nat.add_0_r, Nat.add_1_r in Hn. exact Hn.
  - subst pc. rewrite (decode_push _ n Hi') in Hn. exact Hn.
  - destruct Hpc as [Ev ->]. apply (jump_lands_on_jumpdest _ _ Ev).
Qed.

Definition inv (code : list Z) (m : mstate) : Prop :=
  (length (m_stack m) <= 1024)%nat /\ at_start code (m_pc m).

Fixpoint states (fuel : nat) (e : env) (code : list Z) (m : mstate) : list mstate :=
  match fuel with
  | O => [m]
  | S k => m :: match step e code m with inl m' => states k e code m' | inr _ => [] end
  end.

Lemma states_Forall (P : mstate -> Prop) e code : (forall m m', P m -> step e code m = inl m' -> P m') ->
  forall fuel m, P m -> Forall P (states fuel e code m).
Proof.
  intro HP. induction fuel as [|k IH]; intros m Hm; cbn [states]; constructor; auto.
  destruct (step e code m) as [m'|] eqn:Es; [|constructor]. apply IH. exact (HP _ _ Hm Es).
Qed.

Theorem run_invariant fuel e code : forall m, inv code m -> Forall (inv code) (states fuel e code m).
Proof.
  apply states_Forall. intros m m' [_ Hp] Es.
  split; [exact (step_stack_bound _ _ _ _ Es)|exact (step_at_start _ _ _ _ Es Hp)].
Qed.

Lemma init_inv code store : inv code (init_state store).
Proof.
  split; [cbn; lia|]. unfold at_start. cbn. destruct code as [|b t]; [left; cbn; lia|right; reflexivity].
Qed.

Lemma run_step k e code m m' : step e code m = inl m' -> run (S k) e code m = run k e code m'.
Proof. intro E. cbn [run]. rewrite E. reflexivity. Qed.

(* JUMPDEST; PC; PUSH1 0; JUMP: every turn of the loop leaves one more word on the stack *)
Definition pc_loop : list Z := [91; 88; 96; 0; 86].

Section PcLoop.
Variables (e : env) (mem : list Z) (store : list (Z * Z)) (logs : list (list Z * list Z)).
Local Notation at_pc pc s := (mkM pc s mem store logs).

Lemma pc_loop_turn s k : (length s + 2 <= stack_limit)%nat ->
  run (4 + k) e pc_loop (at_pc 0 s) = run k e pc_loop (at_pc 0 (1 :: s)).
Proof.
  intro H. cbn [Nat.add].
  rewrite (run_step _ _ _ _ (at_pc 1 s)), (run_step _ _ _ _ (at_pc 2 (1 :: s))),
    (run_step _ _ _ _ (at_pc 4 (0 :: 1 :: s))), (run_step _ _ _ _ (at_pc 0 (1 :: s))); [reflexivity| | | |].
  - (* JUMP *) eapply step_intro; [cbn; lia|cbn; lia|reflexivity..|split; reflexivity].
  - (* PUSH1 0 *) eapply step_intro; [cbn; lia|cbn; lia|reflexivity..].
  - (* PC *) eapply step_intro; [cbn; lia|cbn; lia|reflexivity..].
  - (* JUMPDEST *) eapply step_intro; [cbn; lia|cbn; lia|reflexivity..].
Qed.

(* [t] turns fill the stack up to one word below the limit; in the next one PC pushes the last word
   and PUSH1 finds the stack full *)
Lemma pc_loop_overflows r : forall t s, (length s + t + 1 = stack_limit)%nat ->
  run (t * 4 + 3 + r) e pc_loop (at_pc 0 s) = OFail.
Proof.
  induction t as [|t IH]; intros s H.
  - cbn [Nat.mul Nat.add]. rewrite (run_step _ _ _ _ (at_pc 1 s)), (run_step _ _ _ _ (at_pc 2 (1 :: s))).
    + (* PUSH1 0 *) cbn [run]. rewrite step_overflow; [reflexivity|cbn; lia].
    + (* PC *) eapply step_intro; [cbn; lia|cbn; lia|reflexivity..].
    + (* JUMPDEST *) eapply step_intro; [cbn; lia|cbn; lia|reflexivity..].
  - change (S t * 4 + 3 + r)%nat with (4 + (t * 4 + 3 + r))%nat. rewrite pc_loop_turn by lia. apply IH. cbn [length]. lia.
Qed.
End PcLoop.

Lemma pc_loop_fails e store r : call ((stack_limit - 1) * 4 + 3 + r) e pc_loop store = OFail.
Proof. apply pc_loop_overflows. reflexivity. Qed.
