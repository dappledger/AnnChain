(* The signer through one input: the votes a node emits while handling an input are, in order, the
   results of successive signer decisions - each vote either fresh (its height/round/step is
   strictly after everything signed before, and becomes the signer's new position) or the
   repetition of exactly the vote last signed.  Local form of the rules R0 and R1 (configuration
   without skip-commit: a finished height ends the input). *)
From Coq Require Import List NArith ZArith Lia Bool.
From AnnVerif Require Import Base.Res Model.Node Proofs.NodeProofs Proofs.NodeSteps.
Import ListNotations.
Open Scope Z_scope.

Definition st_of (t : N) : Z := if N.eqb t 1 then 2 else 3.

(* [sg_prop]: a proposal moves the signer record; nothing is asked of the output *)
Inductive sgrel (h : Z) : signer -> list out -> signer -> Prop :=
| sg_done s : sgrel h s [] s
| sg_other s x o s' : (forall t r b, x <> OVote t r b) -> sgrel h s o s' -> sgrel h s (x :: o) s'
| sg_prop s r o s' : hrs_lt (sg_h s) (sg_r s) (sg_s s) h r 1 = true -> sgrel h (mkSg h r 1 None) o s' -> sgrel h s o s'
| sg_fresh s t r b o s' : hrs_lt (sg_h s) (sg_r s) (sg_s s) h r (st_of t) = true ->
    sgrel h (mkSg h r (st_of t) (Some (t, b))) o s' -> sgrel h s (OVote t r b :: o) s'
| sg_same s t r b o s' : sg_h s = h -> sg_r s = r -> sg_s s = st_of t -> (exists w, sg_what s = Some w /\ what_eqb (t, b) w = true) ->
    sgrel h s o s' -> sgrel h s (OVote t r b :: o) s'.

Lemma sgrel_app h s1 o1 s2 o2 s3 : sgrel h s1 o1 s2 -> sgrel h s2 o2 s3 -> sgrel h s1 (o1 ++ o2) s3.
Proof.
  intros H1 H2. induction H1; cbn [app]; [exact H2| | | |].
  - apply sg_other; auto.
  - eapply sg_prop; eauto.
  - apply sg_fresh; auto.
  - apply sg_same; auto.
Qed.

Definition SG (f : node -> M) : Prop :=
  forall n n' o, f n = Ok (n', o) -> sgrel (height n) (sg n) o (sg n').

Lemma SG_sign t b : SG (sign_add_vote t b).
Proof.
  intros n n' o E. unfold sign_add_vote in E. destruct (negb _); [injection E as <- <-; constructor|]. fold (st_of t) in E.
  pose proof (sign_check_fresh (sg n) (height n) (round n) (st_of t) (Some (t, b))) as Hf.
  destruct (sign_check _ _ _ _ _) eqn:Ec; injection E as <- <-; cbn [sg set_sg]; [| |apply sg_done..].
  - apply sg_fresh; [exact Hf|apply sg_done].
  - destruct (sign_check_same _ _ _ _ _ Ec) as (A & B & C & a & w & Ea & Ew & Eq). injection Ea as <-.
    apply sg_same; eauto. apply sg_done.
Qed.

Lemma sgrel_others h s o : (forall x t r b, In x o -> x <> OVote t r b) -> sgrel h s o s.
Proof.
  induction o as [|x o IH]; intro H; [constructor|]. apply sg_other; [intros t r b; apply (H x); left; reflexivity|].
  apply IH. intros y t r b Hy. apply (H y). right. exact Hy.
Qed.
Lemma sgrel_quiet h s o : quiet_out o -> sgrel h s o s.
Proof. intro Q. apply sgrel_others. intros x t r b Hx ->. exact (Q _ Hx). Qed.

Lemma SG_do_prevote : SG do_prevote.
Proof. intros n n' o E. apply do_prevote_inv in E as (b & E & _). exact (SG_sign 1 b n n' o E). Qed.

Lemma SG_decide_proposal : SG decide_proposal.
Proof.
  assert (Hq : forall h s x, (forall t r b, x <> OVote t r b) -> sgrel h s [x] s) by (intros; apply sg_other; [assumption|apply sg_done]).
  intros n n' o E. unfold decide_proposal in E. destruct (negb _); [injection E as <- <-; constructor|].
  destruct (pol_info _) as [[polr ?]| |]; try discriminate.
  pose proof (sign_check_fresh (sg n) (height n) (round n) 1 None) as Hf.
  destruct (sign_check _ _ _ _ _); injection E as <- <-; cbn [sg set_sg]; [|apply Hq; discriminate|apply sg_done|apply Hq; discriminate].
  apply (sg_prop _ _ (round n)); [exact Hf|apply Hq; discriminate].
Qed.

Lemma SG_enter_precommit h r : SG (enter_precommit h r).
Proof.
  intros n n' o E. apply enter_precommit_inv in E as [[-> ->]|(_ & _ & m & vb & n2 & Hc & Es & ->)]; [constructor|].
  destruct (pc_choice_same _ _ _ _ Hc) as (Hh & _ & _ & _ & Hs). rewrite <- Hh, <- Hs. apply (SG_sign 2 vb m n2 o Es).
Qed.

Lemma act_SG reached dv n o n' : act reached dv n o n' -> sgrel (height n) (sg n) o (sg n').
Proof.
  destruct 1 as [n o n' (_ & -> & Q)|n n' o E|n n' o E|h r n n' o E _|n R|n k hv E|n v peer hv added code _ E];
    try constructor.
  - apply sgrel_quiet, Q.
  - apply SG_do_prevote, E.
  - apply SG_decide_proposal, E.
  - eapply SG_enter_precommit, E.
  - destruct (unlock_rule_same n R) as (_ & _ & _ & _ & -> & _). constructor.
Qed.

Lemma acts_SG reached dv n o n' : acts reached dv n o n' -> sgrel (height n) (sg n) o (sg n').
Proof.
  induction 1 as [|n o1 m o2 n' H1 _ IH]; [constructor|].
  eapply sgrel_app; [eapply act_SG; exact H1|]. rewrite <- (proj1 (act_keeps _ _ _ _ _ H1)). exact IH.
Qed.

Theorem SG_handle c i : c_skip_commit c = false -> SG (handle c i).
Proof.
  intros Hs n n' o E.
  assert (Ht : trace False (match i with IVote v _ => [v] | _ => [] end) c n o n').
  { apply handle_trace_any, E. }
  destruct Ht as [? ? ? Ha|? o1 m h m' o2 o3 ? Ha Hf _ _ Hq]; [eapply acts_SG; exact Ha|].
  destruct (Hq Hs) as [-> Q3]. eapply sgrel_app; [eapply acts_SG; exact Ha|].
  apply finalize_commit_next in Hf as [[-> ->]|(_ & _ & -> & hash & ->)]; [apply sgrel_quiet, Q3|].
  apply sgrel_others. intros x t r0 b0 [<-|[<-|Hx]]; [discriminate..|intros ->; exact (Q3 _ Hx)].
Qed.

Definition keeps_h (f : node -> M) : Prop := forall n n' o, f n = Ok (n', o) -> height n' = height n.
Definition mono_h (f : node -> M) : Prop := forall n n' o, f n = Ok (n', o) -> height n <= height n'.
Lemma mono_keeps f : keeps_h f -> mono_h f.
Proof. intros H n n' o E. rewrite (H _ _ _ E). lia. Qed.
