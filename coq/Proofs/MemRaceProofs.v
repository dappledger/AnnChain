(* gemmill/mempool under every schedule of concurrent submitters (Model/TxPool.v, [mev]): the pool
   invariant survives any interleaving of lookups, pushes and updates, and between two updates a
   transaction is accepted at most once however many goroutines hand it in at the same moment. *)
From Coq Require Import List NArith Bool Lia.
From AnnVerif Require Import Model.TxPool Proofs.PoolProofs.
Import ListNotations.

Theorem mem_inv_any_schedule evs : forall m, mem_inv m -> mem_inv (mev_run evs m).
Proof.
  apply fold_left_inv. intros m e H.
  destruct e as [x|x|ids]; cbn [mev_step]; [exact H|apply mem_receive_inv; exact H|apply mem_update_inv; exact H].
Qed.

(* while no update clears the cache, a transaction already in it is never accepted, and one that
   is not is accepted once: its first push puts it there *)
Lemma accepted_bound x evs : forall m, forallb (fun e => negb (is_update e)) evs = true ->
  (accepted x evs m <= if existsb (N.eqb x) (m_cache m) then 0 else 1)%nat.
Proof.
  induction evs as [|e t IH]; intros m Hn; cbn [accepted]; [destruct (existsb _ _); lia|].
  cbn [forallb] in Hn. apply andb_true_iff in Hn as [He Hn].
  destruct e as [y|y|ids]; cbn [mev_step]; [apply IH; exact Hn| |discriminate].
  unfold mem_receive. destruct (existsb (N.eqb y) (m_cache m)) eqn:Ey; cbn [fst snd].
  - rewrite andb_false_r. apply IH. exact Hn.
  - specialize (IH (mkMem (m_txs m ++ [y]) (m_cache m ++ [y])) Hn). cbn [m_cache] in IH.
    rewrite existsb_app in IH. cbn [existsb] in IH. rewrite orb_false_r, N.eqb_sym in IH.
    destruct (N.eqb_spec y x) as [->|Hne]; cbn [andb].
    + rewrite Ey, orb_true_r in *. lia.
    + rewrite orb_false_r in IH. exact IH.
Qed.

Theorem accepted_at_most_once x evs : forall m, forallb (fun e => negb (is_update e)) evs = true ->
  (accepted x evs m <= 1)%nat.
Proof. intros m Hn. pose proof (accepted_bound x evs m Hn). destruct (existsb _ _); lia. Qed.
