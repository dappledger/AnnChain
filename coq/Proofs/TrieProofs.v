(* Proofs about Model.Trie (C11): the trie is a function of its content.
   - well-formed tries (the shape invariant of the code: no empty short keys, no short node under
     a short node, full nodes with at least two children, values only behind a terminator);
   - insert and delete keep tries well-formed and change exactly the binding of their key;
   - two well-formed tries with the same bindings are the same tree (canonical form), hence any
     two operation histories that end in the same content give the same tree and the same root,
     whatever the hash function.
   The content of a node is what [lookup] answers.  A key meets the key of a short node in one of
   three ways ([split3]); lookup, insert and delete are first rewritten for each of them that a
   well-formed trie allows, and all that follows argues about keys of the form prefix ++ rest, never about positions. *)
From Coq Require Import List NArith Bool Lia Arith.
From AnnVerif Require Import Base.Bytes Model.Trie.
Import ListNotations.
Open Scope N_scope.

(* a key as the trie sees it: nibbles, ended by the terminator 16 *)
Definition lt16 (x : N) : Prop := x < 16.
Definition vkey (k : list N) : Prop := exists p, k = p ++ [16] /\ Forall lt16 p.

Lemma vkey_nonempty k : vkey k -> k <> [].
Proof. intros (p & -> & _). destruct p; discriminate. Qed.
Lemma vkey_cons x k : vkey (x :: k) -> (x = 16 /\ k = []) \/ (x < 16 /\ vkey k).
Proof.
  intros (p & E & Hp). destruct p as [|y p]; cbn in E.
  - injection E as -> ->. left. auto.
  - injection E as -> ->. inversion Hp; subst. right. split; [assumption|]. exists p. auto.
Qed.
Lemma vkey_cons_lt x k : x < 16 -> vkey k -> vkey (x :: k).
Proof. intros Hx (p & -> & Hp). exists (x :: p). split; [reflexivity|constructor; assumption]. Qed.
Lemma vkey_term : vkey [16].
Proof. exists []. split; [reflexivity|constructor]. Qed.
Lemma vkey_head_le x k : vkey (x :: k) -> x <= 16.
Proof. intros [[-> _]|[H _]]%vkey_cons; lia. Qed.
Lemma vkey_app_lt pre q : Forall lt16 pre -> vkey q -> vkey (pre ++ q).
Proof. intros Hp (p & -> & Hq). exists (pre ++ p). split; [apply app_assoc|]. apply Forall_app. auto. Qed.
Lemma vkey_app_inv a b : vkey (a ++ b) -> b <> [] -> Forall lt16 a /\ vkey b.
Proof.
  intros H Hb. induction a as [|x a IH]; [split; [constructor|exact H]|].
  apply vkey_cons in H as [[_ E]|[Hx H]].
  - apply app_eq_nil in E as [_ ->]. contradiction.
  - destruct (IH H) as [Ha Vb]. split; [constructor|]; assumption.
Qed.
Lemma vkey_not_lt16 k : vkey k -> Forall lt16 k -> False.
Proof. intros (p & -> & _) [_ H]%Forall_app. inversion H as [|? ? H16]. unfold lt16 in H16. lia. Qed.
Lemma vkey_strip a b : Forall lt16 a -> vkey (a ++ b) -> vkey b.
Proof.
  intros Ha V. destruct b; [rewrite app_nil_r in V; destruct (vkey_not_lt16 _ V Ha)|].
  apply (vkey_app_inv a); [exact V|discriminate].
Qed.
Lemma vkey_prefix_free a b : vkey a -> vkey (a ++ b) -> b = [].
Proof.
  intros Va Vab. destruct b as [|y b]; [reflexivity|exfalso].
  apply vkey_app_inv in Vab as [Ha _]; [|discriminate]. exact (vkey_not_lt16 a Va Ha).
Qed.

Inductive split3 (a b : list N) : Prop :=
| sp_along r : a = b ++ r -> split3 a b
| sp_fork s x ra y rb : x <> y -> a = s ++ x :: ra -> b = s ++ y :: rb -> split3 a b
| sp_cut y rb : b = a ++ y :: rb -> split3 a b.
Lemma split3_total a b : split3 a b.
Proof.
  revert b. induction a as [|x a IH]; intros [|y b].
  - now apply (sp_along _ _ []).
  - now apply (sp_cut _ _ y b).
  - now apply (sp_along _ _ (x :: a)).
  - destruct (N.eq_dec x y) as [->|Hne]; [|now apply (sp_fork _ _ [] x a y b)].
    destruct (IH b) as [r ->|s x' ra y' rb Hne -> ->|y' rb ->].
    + now apply (sp_along _ _ r).
    + now apply (sp_fork _ _ (y :: s) x' ra y' rb).
    + now apply (sp_cut _ _ y' rb).
Qed.

Lemma set_child_length cs i c : length (set_child cs i c) = length cs.
Proof. revert i. induction cs as [|h t IH]; intros [|i]; cbn; auto. Qed.
Lemma get_set_same cs i c : (i < length cs)%nat -> get_child (set_child cs i c) i = c.
Proof. revert i. induction cs as [|h t IH]; intros [|i] H; cbn in *; try lia; [reflexivity|]. apply IH. lia. Qed.
Lemma get_set_other cs i j c : i <> j -> get_child (set_child cs i c) j = get_child cs j.
Proof.
  revert i j. induction cs as [|h t IH]; intros [|i] [|j] H; cbn; try reflexivity; try lia.
  apply IH. lia.
Qed.
Lemma get_nils17 i : get_child nils17 i = NNil.
Proof. apply nth_repeat. Qed.
Lemma lookup_nils17 i key : lookup (get_child nils17 i) key = None.
Proof. now rewrite get_nils17. Qed.

Lemma node_nil_dec (c : node) : {c = NNil} + {c <> NNil}.
Proof. destruct c; [left; reflexivity|right; discriminate..]. Qed.

Definition occ (c : node) : nat := match c with NNil => 0 | _ => 1 end.
Lemma occ_pos c : c <> NNil -> occ c = 1%nat.
Proof. destruct c; [contradiction|reflexivity..]. Qed.
Lemma occ_le c : (occ c <= 1)%nat.
Proof. destruct c; cbn; lia. Qed.
Lemma count_cons c cs : count_children (c :: cs) = (occ c + count_children cs)%nat.
Proof. destruct c; reflexivity. Qed.
Lemma count_set cs i c : (i < length cs)%nat ->
  (count_children (set_child cs i c) + occ (get_child cs i) = count_children cs + occ c)%nat.
Proof.
  revert i. induction cs as [|h t IH]; intros [|i] H; cbn [length] in H; try lia;
    cbn [set_child get_child nth]; rewrite !count_cons; [lia|].
  specialize (IH i ltac:(lia)). unfold get_child in IH. lia.
Qed.
Lemma count_nils17 : count_children nils17 = 0%nat. Proof. reflexivity. Qed.
Lemma occupied_lt cs i : get_child cs i <> NNil -> (i < length cs)%nat.
Proof. intro H. destruct (Nat.lt_ge_cases i (length cs)); [assumption|]. destruct H. now apply nth_overflow. Qed.
Lemma count_clear cs i : get_child cs i <> NNil ->
  (count_children (set_child cs i NNil) + 1 = count_children cs)%nat.
Proof.
  intro H. rewrite <- (occ_pos _ H), <- (Nat.add_0_r (count_children cs)).
  apply (count_set cs i NNil), occupied_lt, H.
Qed.
Lemma first_child_spec cs base : (1 <= count_children cs)%nat ->
  exists j, first_child cs base = (base + j)%nat /\ get_child cs j <> NNil.
Proof.
  revert base. induction cs as [|c t IH]; intros base H; [cbn in H; lia|].
  destruct c; [|exists 0%nat; split; [cbn; lia|discriminate]..].
  rewrite count_cons in H. destruct (IH (S base) H) as (j & E & Hj).
  exists (S j). split; [cbn [first_child]; lia|exact Hj].
Qed.
Lemma count_two cs : (2 <= count_children cs)%nat ->
  exists i j, i <> j /\ get_child cs i <> NNil /\ get_child cs j <> NNil.
Proof.
  intros H. destruct (first_child_spec cs 0 ltac:(lia)) as (i & _ & Hi). pose proof (count_clear cs i Hi) as C.
  destruct (first_child_spec (set_child cs i NNil) 0 ltac:(lia)) as (j & _ & Hj).
  assert (i <> j) by (intros <-; now rewrite get_set_same in Hj by now apply occupied_lt).
  exists i, j. rewrite get_set_other in Hj by assumption. auto.
Qed.
Lemma count_one_unique cs i j : count_children cs = 1%nat ->
  get_child cs i <> NNil -> get_child cs j <> NNil -> i = j.
Proof.
  intros Hc Hi Hj. destruct (Nat.eq_dec i j) as [|Hne]; [assumption|exfalso].
  pose proof (count_clear cs i Hi). rewrite <- (get_set_other cs i j NNil Hne) in Hj. apply count_clear in Hj. lia.
Qed.

(* the nested loops of the model are child updates / child lookups *)
Lemma update_loop (f : node -> node) cs i :
  (fix go (cs : list node) (i : nat) : list node :=
     match cs with
     | [] => []
     | c :: t => match i with O => f c :: t | S i' => c :: go t i' end
     end) cs i = set_child cs i (f (get_child cs i)).
Proof.
  revert i. induction cs as [|c t IH]; intros [|i]; try reflexivity.
  cbn [set_child get_child nth]. f_equal. apply IH.
Qed.
Lemma insert_full cs k0 kr v :
  insert (NFull cs) (k0 :: kr) v = NFull (set_child cs (N.to_nat k0) (insert (get_child cs (N.to_nat k0)) kr v)).
Proof. cbn [insert]. f_equal. apply (update_loop (fun c => insert c kr v)). Qed.
Lemma delete_full cs k0 kr :
  delete (NFull cs) (k0 :: kr) = reduce_full (set_child cs (N.to_nat k0) (delete (get_child cs (N.to_nat k0)) kr)).
Proof. cbn [delete]. f_equal. apply (update_loop (fun c => delete c kr)). Qed.
Lemma lookup_full cs k0 kr : lookup (NFull cs) (k0 :: kr) = lookup (get_child cs (N.to_nat k0)) kr.
Proof.
  cbn [lookup]. generalize (N.to_nat k0).
  induction cs as [|c t IH]; intros i; [destruct i; reflexivity|]. destruct i as [|i]; [reflexivity|]. apply IH.
Qed.
Lemma insert_nil k v : k <> [] -> insert NNil k v = NShort k v.
Proof. destruct k; [contradiction|reflexivity]. Qed.
Lemma insert_empty n v : insert n [] v = v.
Proof. destruct n; reflexivity. Qed.

Lemma prefix_len_along b r : prefix_len (b ++ r) b = length b.
Proof. induction b as [|x b IH]; cbn; [destruct r; reflexivity|]. rewrite N.eqb_refl. f_equal. exact IH. Qed.
Lemma prefix_len_fork s x ra y rb : x <> y -> prefix_len (s ++ x :: ra) (s ++ y :: rb) = length s.
Proof.
  intro H. induction s as [|z s IH]; cbn; [now apply N.eqb_neq in H as ->|]. rewrite N.eqb_refl. f_equal. exact IH.
Qed.
Lemma prefix_len_cut a r : prefix_len a (a ++ r) = length a.
Proof. induction a as [|x a IH]; cbn; [reflexivity|]. rewrite N.eqb_refl. f_equal. exact IH. Qed.
Lemma skipn_length_app {A} (a b : list A) : skipn (length a) (a ++ b) = b.
Proof. induction a; [reflexivity|assumption]. Qed.
Lemma skipn_S_length_app {A} (a : list A) x b : skipn (S (length a)) (a ++ x :: b) = b.
Proof. induction a; [reflexivity|assumption]. Qed.
Lemma firstn_length_app {A} (a b : list A) : firstn (length a) (a ++ b) = a.
Proof. induction a; cbn; [reflexivity|now f_equal]. Qed.
Lemma firstn_in {A} (l : list A) m x : In x (firstn m l) -> In x l.
Proof. intro H. rewrite <- (firstn_skipn m l). apply in_or_app. now left. Qed.
Lemma prefix_len_lt_split q nk m : prefix_len q nk = m -> (m < length nk)%nat -> (m < length q)%nat ->
  q = firstn m nk ++ nth m q 0 :: skipn (S m) q /\ nth m q 0 <> nth m nk 0.
Proof.
  intros <-. revert nk. induction q as [|x q IH]; intros [|y nk]; cbn; try lia.
  destruct (N.eqb_spec x y) as [->|Hne]; cbn; intros H1 H2; [|now split].
  destruct (IH nk) as [E1 E2]; try lia. split; [now f_equal|exact E2].
Qed.

Lemma insert_short_along nk c r v : nk ++ r <> [] ->
  insert (NShort nk c) (nk ++ r) v = NShort nk (insert c r v).
Proof.
  intro H. destruct (nk ++ r) as [|k0 kr] eqn:E; [contradiction|]. cbn [insert]. rewrite <- E.
  now rewrite prefix_len_along, Nat.eqb_refl, skipn_length_app.
Qed.

(* two-child branches (what insert builds when keys part) *)
Definition branch2 (i1 : N) (c1 : node) (i2 : N) (c2 : node) : list node :=
  set_child (set_child nils17 (N.to_nat i1) c1) (N.to_nat i2) c2.
Lemma insert_short_fork s x ra y rb c v : x <> y ->
  insert (NShort (s ++ y :: rb) c) (s ++ x :: ra) v =
  mk_short s (NFull (branch2 y (mk_short rb c) x (mk_short ra v))).
Proof.
  intro H. destruct (s ++ x :: ra) as [|k0 kr] eqn:E; [now destruct s|]. cbn [insert]. rewrite <- E.
  rewrite (prefix_len_fork _ _ _ _ _ H), firstn_length_app, !nth_middle.
  rewrite !skipn_S_length_app.
  replace (length s =? length (s ++ y :: rb))%nat with false
    by (symmetry; apply Nat.eqb_neq; rewrite app_length; cbn; lia).
  now destruct s.
Qed.

(* what delete makes of a short node with key k whose child became c: the two are merged when c
   is a short node itself *)
Definition graft (k : list N) (c : node) : node :=
  match c with NShort ck cv => NShort (k ++ ck) cv | child => NShort k child end.

Lemma delete_short_along nk c r :
  delete (NShort nk c) (nk ++ r) = match r with [] => NNil | _ => graft nk (delete c r) end.
Proof.
  cbn [delete]. rewrite prefix_len_along, Nat.ltb_irrefl, skipn_length_app, app_length.
  destruct r; [now rewrite Nat.add_0_r, Nat.eqb_refl|].
  replace (_ =? _)%nat with false by (symmetry; apply Nat.eqb_neq; cbn; lia).
  unfold graft. now destruct (delete c _).
Qed.
Lemma delete_short_fork s x ra y rb c : x <> y ->
  delete (NShort (s ++ y :: rb) c) (s ++ x :: ra) = NShort (s ++ y :: rb) c.
Proof.
  intro H. cbn [delete]. rewrite (prefix_len_fork _ _ _ _ _ H).
  replace (_ <? _)%nat with true by (symmetry; apply Nat.ltb_lt; rewrite app_length; cbn; lia). reflexivity.
Qed.

Lemma lookup_short_nil c q : lookup (NShort [] c) q = lookup c q.
Proof. cbn [lookup length]. now destruct q. Qed.
Lemma lookup_short_cons_eq x k c r : lookup (NShort (x :: k) c) (x :: r) = lookup (NShort k c) r.
Proof. cbn [lookup length prefix_len skipn]. now rewrite N.eqb_refl. Qed.
Lemma lookup_short_cons_ne x y k c r : x <> y -> lookup (NShort (y :: k) c) (x :: r) = None.
Proof. intro H. cbn [lookup length prefix_len]. apply N.eqb_neq in H as ->. now destruct (_ <? _)%nat. Qed.

Lemma lookup_short_app nk c r : lookup (NShort nk c) (nk ++ r) = lookup c r.
Proof. induction nk; [apply lookup_short_nil|]. cbn [app]. now rewrite lookup_short_cons_eq. Qed.
Lemma lookup_short_self k c : lookup (NShort k c) k = lookup c [].
Proof. rewrite <- (app_nil_r k) at 2. apply lookup_short_app. Qed.
Lemma lookup_short_fork s x ra y rb c : x <> y -> lookup (NShort (s ++ y :: rb) c) (s ++ x :: ra) = None.
Proof. intro H. induction s; cbn [app]; [now apply lookup_short_cons_ne|now rewrite lookup_short_cons_eq]. Qed.
Lemma lookup_short_cut q y rb c : lookup (NShort (q ++ y :: rb) c) q = None.
Proof. induction q; cbn [app]; [reflexivity|now rewrite lookup_short_cons_eq]. Qed.
Lemma lookup_short_split a b c q : lookup (NShort (a ++ b) c) q = lookup (NShort a (NShort b c)) q.
Proof.
  revert q. induction a as [|z a IH]; intro q; [now rewrite lookup_short_nil|].
  destruct q as [|w q]; [reflexivity|]. cbn [app]. destruct (N.eq_dec w z) as [->|H].
  - now rewrite !lookup_short_cons_eq.
  - now rewrite !lookup_short_cons_ne.
Qed.
Lemma lookup_mk_short k v key : lookup (mk_short k v) key =
  match k with
  | [] => lookup v key
  | _ => lookup (NShort k v) key
  end.
Proof. destruct k; reflexivity. Qed.
Lemma lookup_mk_short_eq k c q : lookup (mk_short k c) q = lookup (NShort k c) q.
Proof. destruct k; [symmetry; apply lookup_short_nil|reflexivity]. Qed.
Lemma lookup_graft k c q : lookup (graft k c) q = lookup (NShort k c) q.
Proof. destruct c; try reflexivity. apply lookup_short_split. Qed.
Lemma lookup_short_other k c q : vkey k -> vkey q -> q <> k -> lookup (NShort k c) q = None.
Proof.
  intros Vk Vq Hne. destruct (split3_total q k) as [r ->|s x ra y rb H -> ->|y rb ->].
  - rewrite (vkey_prefix_free k r Vk Vq), app_nil_r in Hne. contradiction.
  - now apply lookup_short_fork.
  - apply lookup_short_cut.
Qed.

(* b is a with k set to o, as far as the keys that continue the path p can tell *)
Definition sets_under (p k : list N) (o : option bytes) (a b : node) : Prop :=
  lookup b k = o /\ forall q, vkey (p ++ q) -> q <> k -> lookup b q = lookup a q.
Definition sets : list N -> option bytes -> node -> node -> Prop := sets_under [].

Lemma sets_if k o a b : sets k o a b ->
  forall q, vkey q -> lookup b q = if list_eq_dec N.eq_dec q k then o else lookup a q.
Proof. intros [H1 H2] q Vq. destruct (list_eq_dec N.eq_dec q k) as [->|Hne]; auto. Qed.
Lemma sets_absent k n : lookup n k = None -> sets k None n n.
Proof. intro H. split; auto. Qed.
Lemma sets_ext k o a a' b b' : (forall q, lookup a' q = lookup a q) -> (forall q, lookup b' q = lookup b q) ->
  sets k o a b -> sets k o a' b'.
Proof. intros Ea Eb [H1 H2]. split; [now rewrite Eb|]. intros q Vq Hq. rewrite Ea, Eb. auto. Qed.
(* below nibbles every key continues; below the terminator none does *)
Lemma sets_under_lt p k o a b : Forall lt16 p -> sets k o a b -> sets_under p k o a b.
Proof. intros Hp [H1 H2]. split; [exact H1|]. intros q Vq. apply H2. now apply (vkey_strip p). Qed.
Lemma sets_under_term o a b : lookup b [] = o -> sets_under [16] [] o a b.
Proof. intro H. split; [exact H|]. intros q [[_ ->]|[Hq _]]%vkey_cons Hne; [contradiction|lia]. Qed.
Lemma sets_short nk k o c c' : sets_under nk k o c c' -> sets (nk ++ k) o (NShort nk c) (NShort nk c').
Proof.
  intros [H1 H2]. split; [now rewrite lookup_short_app|]. intros q Vq Hq.
  destruct (split3_total q nk) as [r ->|s x ra y rb Hne -> ->|y rb ->].
  - rewrite !lookup_short_app. apply H2; [exact Vq|]. intros ->. now apply Hq.
  - now rewrite !lookup_short_fork.
  - now rewrite !lookup_short_cut.
Qed.
Lemma sets_full cs x k o c' : (N.to_nat x < length cs)%nat ->
  sets_under [x] k o (get_child cs (N.to_nat x)) c' ->
  sets (x :: k) o (NFull cs) (NFull (set_child cs (N.to_nat x) c')).
Proof.
  intros Hx [H1 H2]. split; [now rewrite lookup_full, get_set_same|]. intros q Vq Hq.
  destruct q as [|y r]; [reflexivity|]. rewrite !lookup_full. destruct (N.eq_dec y x) as [->|Hne].
  - rewrite get_set_same by exact Hx. apply H2; [exact Vq|]. intros ->. now apply Hq.
  - rewrite get_set_other by lia. reflexivity.
Qed.

Inductive wf : node -> Prop :=
| wf_leaf p v : Forall lt16 p -> v <> [] -> wf (NShort (p ++ [16]) (NVal v))
| wf_ext k cs : k <> [] -> Forall lt16 k -> wf (NFull cs) -> wf (NShort k (NFull cs))
| wf_full cs : length cs = 17%nat -> (2 <= count_children cs)%nat ->
    (forall i c, nth_error cs i = Some c -> c <> NNil -> (i < 16)%nat -> wf c) ->
    (get_child cs 16 = NNil \/ exists v, get_child cs 16 = NVal v /\ v <> []) ->
    wf (NFull cs).
Definition wfr (n : node) : Prop := n = NNil \/ wf n.

Lemma wf_not_nil n : wf n -> n <> NNil.
Proof. intros W ->. inversion W. Qed.

Definition filled (x : N) (c : node) : Prop :=
  (x = 16 /\ exists v, c = NVal v /\ v <> []) \/ (x < 16 /\ wf c).
Definition slot_ok (x : N) (c : node) : Prop := c = NNil \/ filled x c.
Definition kids_ok (cs : list node) : Prop :=
  length cs = 17%nat /\ forall x, x <= 16 -> slot_ok x (get_child cs (N.to_nat x)).

Lemma filled_not_nil x c : filled x c -> c <> NNil.
Proof. intros [[_ (v & -> & _)]|[_ W]]; [discriminate|now apply wf_not_nil]. Qed.
Lemma filled_le x c : filled x c -> x <= 16.
Proof. intros [[-> _]|[H _]]; lia. Qed.
Lemma slot_lt x c : x < 16 -> slot_ok x c -> wfr c.
Proof. intros Hx [->|[[-> _]|[_ W]]]; [now left|lia|now right]. Qed.
Lemma slot_term c : slot_ok 16 c -> c = NNil \/ exists v, c = NVal v /\ v <> [].
Proof. intros [->|[[_ H]|[H _]]]; [now left|now right|lia]. Qed.
Lemma kids_slot cs i : kids_ok cs -> (i < length cs)%nat -> slot_ok (N.of_nat i) (get_child cs i).
Proof. intros [Hlen Hs] Hi. rewrite <- (Nat2N.id i) at 2. apply Hs. lia. Qed.

Lemma wf_full_iff cs : wf (NFull cs) <-> kids_ok cs /\ (2 <= count_children cs)%nat.
Proof.
  split.
  - intro W. inversion W as [| |cs0 Hlen Hcnt Hch H16]; subst. split; [split; [exact Hlen|]|exact Hcnt].
    intros x Hx. destruct (N.eq_dec x 16) as [->|Hne].
    + destruct H16 as [E|E]; [left; exact E|right; left; auto].
    + destruct (node_nil_dec (get_child cs (N.to_nat x))) as [E|E]; [left; exact E|right; right].
      split; [lia|]. apply (Hch (N.to_nat x)); [apply nth_error_nth'; lia|exact E|lia].
  - intros [K Hcnt]. pose proof K as [Hlen Hs]. apply wf_full; [exact Hlen|exact Hcnt| |].
    + intros i c Hn Hc Hi. apply nth_error_nth with (d := NNil) in Hn.
      pose proof (kids_slot cs i K ltac:(lia)) as S. unfold get_child in S. rewrite Hn in S.
      destruct S as [->|[[E _]|[_ W]]]; [contradiction|lia|exact W].
    + exact (slot_term _ (Hs 16 ltac:(lia))).
Qed.
Lemma kids_set cs x c : kids_ok cs -> x <= 16 -> slot_ok x c -> kids_ok (set_child cs (N.to_nat x) c).
Proof.
  intros [Hlen Hs] Hx Hc. split; [now rewrite set_child_length|]. intros y Hy.
  destruct (N.eq_dec x y) as [<-|Hne]; [rewrite get_set_same by lia; exact Hc|].
  rewrite get_set_other by lia. now apply Hs.
Qed.
Lemma kids_nils17 : kids_ok nils17.
Proof. split; [reflexivity|]. intros x _. left. apply get_nils17. Qed.

(* induction over well-formed tries, with the two kinds of short node as one case and the children
   of a full node taken slot by slot *)
Lemma wf_node_ind (P : node -> Prop) :
  (forall k c, wf (NShort k c) -> (wf c -> P c) -> P (NShort k c)) ->
  (forall cs, wf (NFull cs) -> (forall i, wf (get_child cs i) -> P (get_child cs i)) -> P (NFull cs)) ->
  forall n, wf n -> P n.
Proof.
  intros Hs Hf. induction 1 as [p v Hp Hv|k cs Hne Hlt W IH|cs Hlen Hcnt Hch IH H16].
  - apply Hs; [now apply wf_leaf|]. intro W. inversion W.
  - apply Hs; [now apply wf_ext|]. intros _. exact IH.
  - apply Hf; [now apply wf_full|]. intros i W.
    destruct (Nat.lt_ge_cases i 16) as [Hi|Hi].
    + apply (IH i); [apply nth_error_nth'; lia|now apply wf_not_nil|exact Hi].
    + exfalso. destruct (Nat.eq_dec i 16) as [->|Hne].
      * destruct H16 as [E|(v & E & _)]; rewrite E in W; inversion W.
      * unfold get_child in W. rewrite nth_overflow in W by lia. inversion W.
Qed.

Lemma wf_short_inv k c : wf (NShort k c) ->
  (exists v, c = NVal v /\ vkey k /\ v <> []) \/
  (exists cs, c = NFull cs /\ k <> [] /\ Forall lt16 k /\ wf (NFull cs)).
Proof. intro W. inversion W; subst; [left|right]; eexists; repeat split; eauto. eexists; eauto. Qed.
Lemma wf_leaf_iff k v : wf (NShort k (NVal v)) <-> vkey k /\ v <> [].
Proof.
  split.
  - intros [(u & [= <-] & H)|(cs & [=] & _)]%wf_short_inv. exact H.
  - intros [(p & -> & Hp) Hv]. now apply wf_leaf.
Qed.
Lemma wf_short_suffix a b c : wf (NShort (a ++ b) c) -> b <> [] -> wf (NShort b c).
Proof.
  intros [(v & -> & Vk & Hv)|(cs & -> & _ & [_ Hlt]%Forall_app & Wf)]%wf_short_inv Hb.
  - apply wf_leaf_iff. split; [now apply (vkey_app_inv a b)|exact Hv].
  - now apply wf_ext.
Qed.
Lemma graft_wf k c : k <> [] -> Forall lt16 k -> wf c -> wf (graft k c).
Proof.
  intros Hne Hk W. inversion W as [p v Hp Hv|k2 cs Hne2 Hlt Wf|]; subst; cbn [graft].
  - rewrite app_assoc. apply wf_leaf; [apply Forall_app; auto|exact Hv].
  - apply wf_ext; [destruct k; [contradiction|discriminate]|apply Forall_app; auto|exact Wf].
  - now apply wf_ext.
Qed.
Lemma wf_mk_short_full s cs : Forall lt16 s -> wf (NFull cs) -> wf (mk_short s (NFull cs)).
Proof. intros Hs W. destruct s; [exact W|]. now apply wf_ext. Qed.
Lemma filled_mk_short x rest c : wf (NShort (x :: rest) c) -> filled x (mk_short rest c).
Proof.
  intros [(v & -> & [[-> ->]|[Hx Vr]]%vkey_cons & Hv)|(cs & -> & _ & Hlt & Wf)]%wf_short_inv.
  - left. split; [reflexivity|exists v; auto].
  - right. split; [exact Hx|]. destruct rest; [now apply vkey_nonempty in Vr|]. now apply wf_leaf_iff.
  - inversion Hlt; subst. right. split; [assumption|]. now apply wf_mk_short_full.
Qed.
Lemma short_key_not_cut k y rb c : vkey k -> wf (NShort (k ++ y :: rb) c) -> False.
Proof.
  intros Vk [(v & _ & V & _)|(cs & _ & _ & [Hlt _]%Forall_app & _)]%wf_short_inv.
  - now apply vkey_prefix_free in V.
  - exact (vkey_not_lt16 k Vk Hlt).
Qed.

Lemma branch2_get y c1 x c2 z : x <= 16 -> y <= 16 ->
  get_child (branch2 y c1 x c2) (N.to_nat z) = if z =? x then c2 else if z =? y then c1 else NNil.
Proof.
  intros Hx Hy. unfold branch2. destruct (N.eqb_spec z x) as [->|Hzx].
  - apply get_set_same. rewrite set_child_length. cbn. lia.
  - rewrite get_set_other by lia. destruct (N.eqb_spec z y) as [->|Hzy].
    + apply get_set_same. cbn. lia.
    + rewrite get_set_other by lia. apply get_nils17.
Qed.
Lemma branch2_wf y c1 x c2 : x <> y -> filled y c1 -> filled x c2 -> wf (NFull (branch2 y c1 x c2)).
Proof.
  intros Hne F1 F2. pose proof (filled_le _ _ F1) as Hy. pose proof (filled_le _ _ F2) as Hx.
  apply wf_full_iff. split.
  - apply kids_set; [apply kids_set; [exact kids_nils17|exact Hy|now right]|exact Hx|now right].
  - pose proof (count_set (set_child nils17 (N.to_nat y) c1) (N.to_nat x) c2) as C2.
    rewrite set_child_length, get_set_other, get_nils17 in C2 by lia.
    pose proof (count_set nils17 (N.to_nat y) c1) as C1. rewrite get_nils17, count_nils17 in C1.
    rewrite (occ_pos c1), (occ_pos c2) in * by (eapply filled_not_nil; eauto).
    unfold branch2. cbn [length nils17 repeat occ] in *. lia.
Qed.

(* the leaf for x :: ra hung in slot x: in slot 16 the value hangs there bare and would answer any
   rest, but the empty rest is the only key *)
Lemma lookup_hung_leaf x ra v r : vkey (x :: ra) -> vkey (x :: r) -> r <> ra ->
  lookup (mk_short ra (NVal v)) r = None.
Proof.
  intros [[-> ->]|[Hx Va]]%vkey_cons [[E ->]|[Hx' Vr]]%vkey_cons Hne; try contradiction; try lia.
  rewrite lookup_mk_short_eq. now apply lookup_short_other.
Qed.

Lemma insert_fork_spec s x ra y rb c v :
  x <> y -> vkey (s ++ x :: ra) -> v <> [] -> wf (NShort (s ++ y :: rb) c) ->
  let n' := mk_short s (NFull (branch2 y (mk_short rb c) x (mk_short ra (NVal v)))) in
  wf n' /\ sets (s ++ x :: ra) (Some v) (NShort (s ++ y :: rb) c) n'.
Proof.
  intros Hxy Vk Hv W. destruct (vkey_app_inv s (x :: ra) Vk) as [Hs Vx]; [discriminate|].
  assert (F1 : filled y (mk_short rb c)).
  { apply filled_mk_short, (wf_short_suffix s); [exact W|discriminate]. }
  assert (F2 : filled x (mk_short ra (NVal v))) by (apply filled_mk_short, wf_leaf_iff; auto).
  pose proof (filled_le _ _ F1) as Hy. pose proof (filled_le _ _ F2) as Hx.
  split; [apply wf_mk_short_full; [exact Hs|now apply branch2_wf]|].
  eapply sets_ext; [apply lookup_short_split|apply lookup_mk_short_eq|]. apply sets_short. split.
  - rewrite lookup_full, branch2_get, N.eqb_refl, lookup_mk_short_eq by assumption. apply lookup_short_self.
  - intros [|z r] Vr Hr; [reflexivity|]. apply (vkey_strip s) in Vr; [|exact Hs].
    rewrite lookup_full, branch2_get by assumption. destruct (N.eqb_spec z x) as [->|Hzx].
    + rewrite lookup_short_cons_ne by exact Hxy. apply (lookup_hung_leaf x); [assumption..|]. intros ->. now apply Hr.
    + destruct (N.eqb_spec z y) as [->|Hzy].
      * now rewrite lookup_short_cons_eq, lookup_mk_short_eq.
      * now rewrite lookup_short_cons_ne.
Qed.

Lemma insert_nil_spec k v : vkey k -> v <> [] ->
  wf (insert NNil k (NVal v)) /\ sets k (Some v) NNil (insert NNil k (NVal v)).
Proof.
  intros Vk Hv. rewrite insert_nil by now apply vkey_nonempty. split; [now apply wf_leaf_iff|]. split.
  - apply lookup_short_self.
  - intros q Vq Hq. now apply lookup_short_other.
Qed.

Definition keeps_full (n n' : node) : Prop := forall cs, n = NFull cs -> exists cs', n' = NFull cs'.
Lemma insert_keeps_full n k v : k <> [] -> keeps_full n (insert n k v).
Proof. intros Hk cs ->. destruct k as [|x kr]; [contradiction|]. rewrite insert_full. eauto. Qed.

Theorem insert_spec n k v : wfr n -> vkey k -> v <> [] ->
  wf (insert n k (NVal v)) /\ sets k (Some v) n (insert n k (NVal v)).
Proof.
  intros [->|W] Vk Hv; [now apply insert_nil_spec|]. revert k Vk.
  induction W as [nk c W IH|cs W IH] using wf_node_ind; intros k Vk.
  - destruct (split3_total k nk) as [r ->|s x ra y rb Hne -> ->|y rb ->].
    + rewrite insert_short_along by now apply vkey_nonempty.
      destruct (wf_short_inv nk c W) as [(u & -> & Vnk & _)|(cs & -> & Hnk & Hlt & Wf)].
      * (* a leaf: its key is k *)
        rewrite (vkey_prefix_free nk r Vnk Vk), insert_empty, app_nil_r. split; [now apply wf_leaf_iff|]. split.
        -- apply lookup_short_self.
        -- intros q Vq Hq. now rewrite !lookup_short_other.
      * (* an extension: on into the full node *)
        pose proof (vkey_strip nk r Hlt Vk) as Vr. destruct (IH Wf r Vr) as [W' S].
        destruct (insert_keeps_full _ r (NVal v) (vkey_nonempty r Vr) cs eq_refl) as (cs' & E). rewrite E in *.
        split; [now apply wf_ext|now apply sets_short, sets_under_lt].
    + rewrite insert_short_fork by exact Hne. now apply insert_fork_spec.
    + destruct (short_key_not_cut _ _ _ _ Vk W).
  - (* a full node: the slot of the first nibble changes, by a value behind the terminator, by
       induction (or on an empty slot) behind a nibble *)
    destruct k as [|x kr]; [now apply vkey_nonempty in Vk|].
    pose proof (vkey_head_le _ _ Vk) as Hx. apply wf_full_iff in W as [K Hcnt]. pose proof K as [Hlen Hs].
    rewrite insert_full. set (c := get_child cs (N.to_nat x)) in *. set (c' := insert c kr (NVal v)).
    assert (H : filled x c' /\ sets_under [x] kr (Some v) c c').
    { apply vkey_cons in Vk as [[-> ->]|[Hlt Vkr]].
      - unfold c'. rewrite insert_empty. split; [left; eauto|now apply sets_under_term].
      - assert (S : wf c' /\ sets kr (Some v) c c').
        { destruct (slot_lt x c Hlt (Hs x Hx)) as [E|Wc]; [unfold c'; rewrite E; now apply insert_nil_spec|]. now apply IH. }
        destruct S as [Wc' S]. split; [right; auto|]. apply sets_under_lt; [now repeat constructor|exact S]. }
    destruct H as [F S]. split.
    + apply wf_full_iff. split; [apply kids_set; [exact K|exact Hx|now right]|].
      pose proof (count_set cs (N.to_nat x) c' ltac:(lia)) as C. rewrite (occ_pos c' (filled_not_nil x c' F)) in C.
      pose proof (occ_le c). fold c in C. lia.
    + apply sets_full; [lia|exact S].
Qed.

Theorem insert_wf : forall n, wf n -> forall k v, vkey k -> v <> [] ->
  wf (insert n k (NVal v)) /\ keeps_full n (insert n k (NVal v)).
Proof.
  intros n W k v Vk Hv. split; [now apply insert_spec; [right|..]|now apply insert_keeps_full, vkey_nonempty].
Qed.
Theorem lookup_insert : forall n, wf n -> forall k v q, vkey k -> v <> [] -> vkey q ->
  lookup (insert n k (NVal v)) q = if list_eq_dec N.eq_dec q k then Some v else lookup n q.
Proof. intros n W k v q Vk Hv. apply sets_if. now apply insert_spec; [right|..]. Qed.

Definition is_byte (x : N) : Prop := x < 256.

Lemma key_of_bytes_vkey b : Forall is_byte b -> vkey (key_of_bytes b).
Proof.
  intros Hb. unfold key_of_bytes. exists (flat_map (fun x => [x / 16; x mod 16]) b). split; [reflexivity|].
  induction Hb as [|x t Hx Ht IH]; cbn [flat_map app]; [constructor|].
  unfold is_byte in Hx. constructor; [unfold lt16; apply N.div_lt_upper_bound; lia|].
  constructor; [unfold lt16; apply N.mod_lt; lia | exact IH].
Qed.

Lemma key_of_bytes_inj a b : key_of_bytes a = key_of_bytes b -> a = b.
Proof.
  unfold key_of_bytes. intro H. apply app_inj_tail in H. destruct H as [H _].
  revert b H. induction a as [|x a IH]; intros [|y b] H; cbn [flat_map app] in H; try discriminate; [reflexivity|].
  injection H as Hd Hm Ht. f_equal; [|now apply IH].
  rewrite (N.div_mod x 16), (N.div_mod y 16) by lia. now rewrite Hd, Hm.
Qed.

Theorem get_update n k v q : wfr n -> Forall is_byte k -> Forall is_byte q -> v <> [] ->
  get (update n k v) q = if list_eq_dec N.eq_dec q k then Some v else get n q.
Proof.
  intros Hn Hk Hq Hv. unfold get, update. destruct v as [|v0 vt]; [contradiction|].
  destruct (insert_spec n _ _ Hn (key_of_bytes_vkey k Hk) Hv) as [_ [S1 S2]].
  destruct (list_eq_dec N.eq_dec q k) as [->|E]; [exact S1|].
  apply S2; [now apply key_of_bytes_vkey|]. intros E'%key_of_bytes_inj. contradiction.
Qed.

Lemma reduce_full_not_nil cs : reduce_full cs <> NNil.
Proof.
  unfold reduce_full. destruct (_ =? _)%nat; [|discriminate].
  destruct (get_child _ _); try discriminate. destruct (_ =? _)%nat; discriminate.
Qed.
Lemma delete_full_not_nil cs k : k <> [] -> delete (NFull cs) k <> NNil.
Proof. intro Hk. destruct k as [|x kr]; [contradiction|]. rewrite delete_full. apply reduce_full_not_nil. Qed.

Lemma graft_slot_wf x c : filled x c -> wf (graft [x] c).
Proof.
  intros [[-> (v & -> & Hv)]|[Hx W]].
  - apply (wf_leaf [] v); [constructor|exact Hv].
  - apply graft_wf; [discriminate|constructor; [exact Hx|constructor]|exact W].
Qed.

Lemma reduce_full_cases cs : kids_ok cs -> (1 <= count_children cs)%nat ->
  ((2 <= count_children cs)%nat /\ reduce_full cs = NFull cs) \/
  exists x, filled x (get_child cs (N.to_nat x)) /\ (forall j, j <> N.to_nat x -> get_child cs j = NNil) /\
            reduce_full cs = graft [x] (get_child cs (N.to_nat x)).
Proof.
  intros K Hc. unfold reduce_full.
  destruct (Nat.eqb_spec (count_children cs) 1) as [E1|E1]; [right|left; split; [lia|reflexivity]].
  destruct (first_child_spec cs 0 Hc) as (pos & -> & Hg). cbn [Nat.add].
  exists (N.of_nat pos). rewrite Nat2N.id.
  destruct (kids_slot cs pos K (occupied_lt cs pos Hg)) as [E|F]; [contradiction|].
  split; [exact F|]. split.
  - intros j Hj. destruct (node_nil_dec (get_child cs j)) as [E|E]; [exact E|]. destruct Hj. now apply (count_one_unique cs).
  - destruct (get_child cs pos) as [|w|ck cv|cs2]; try reflexivity.
    destruct (Nat.eqb_spec pos 16) as [->|_]; [|reflexivity].
    exfalso. destruct F as [[_ (v & E & _)]|[E _]]; [discriminate|lia].
Qed.
Lemma reduce_full_wf cs : kids_ok cs -> (1 <= count_children cs)%nat -> wf (reduce_full cs).
Proof.
  intros K Hc. destruct (reduce_full_cases cs K Hc) as [[H2 ->]|(x & F & _ & ->)].
  - now apply wf_full_iff.
  - now apply graft_slot_wf.
Qed.
Lemma reduce_full_lookup cs q : kids_ok cs -> (1 <= count_children cs)%nat ->
  lookup (reduce_full cs) q = lookup (NFull cs) q.
Proof.
  intros K Hc. destruct (reduce_full_cases cs K Hc) as [[_ ->]|(x & _ & Hother & ->)]; [reflexivity|].
  rewrite lookup_graft. destruct q as [|y r]; [reflexivity|]. rewrite lookup_full.
  destruct (N.eq_dec y x) as [->|Hne].
  - now rewrite lookup_short_cons_eq, lookup_short_nil.
  - rewrite lookup_short_cons_ne, (Hother (N.to_nat y)) by lia. reflexivity.
Qed.

Lemma delete_sets n k : wf n -> vkey k -> wfr (delete n k) /\ sets k None n (delete n k).
Proof.
  intros W. revert k. induction W as [nk c W IH|cs W IH] using wf_node_ind; intros k Vk.
  - destruct (split3_total k nk) as [r ->|s x ra y rb Hne -> ->|y rb ->].
    + rewrite delete_short_along. destruct (wf_short_inv nk c W) as [(u & -> & Vnk & _)|(cs & -> & Hnk & Hlt & Wf)].
      * (* a leaf: its key is k *)
        rewrite (vkey_prefix_free nk r Vnk Vk), app_nil_r. split; [now left|]. split; [reflexivity|].
        intros q Vq Hq. symmetry. now apply lookup_short_other.
      * (* an extension: what remains of the full node is not empty, and is merged into the short node *)
        pose proof (vkey_strip nk r Hlt Vk) as Vr. destruct (IH Wf r Vr) as [[E|W'] S].
        { now apply delete_full_not_nil in E; [|apply vkey_nonempty]. }
        destruct r as [|x r]; [now apply vkey_nonempty in Vr|].
        split; [right; now apply graft_wf|].
        eapply sets_ext; [reflexivity|apply lookup_graft|]. now apply sets_short, sets_under_lt.
    + rewrite delete_short_fork by exact Hne. split; [now right|]. now apply sets_absent, lookup_short_fork.
    + destruct (short_key_not_cut _ _ _ _ Vk W).
  - (* a full node: the slot of the first nibble changes; at least one other child stays *)
    destruct k as [|x kr]; [now apply vkey_nonempty in Vk|].
    pose proof (vkey_head_le _ _ Vk) as Hx. apply wf_full_iff in W as [K Hcnt]. pose proof K as [Hlen Hs].
    rewrite delete_full. set (c := get_child cs (N.to_nat x)) in *. set (c' := delete c kr).
    assert (H : slot_ok x c' /\ sets_under [x] kr None c c').
    { apply vkey_cons in Vk as [[-> ->]|[Hlt Vkr]].
      - assert (E : c' = NNil).
        { unfold c'. destruct (slot_term c (Hs 16 Hx)) as [E|(u & E & _)]; rewrite E; reflexivity. }
        rewrite E. split; [now left|now apply sets_under_term].
      - assert (S : wfr c' /\ sets kr None c c').
        { destruct (slot_lt x c Hlt (Hs x Hx)) as [E|Wc]; [|now apply IH].
          unfold c'. rewrite E. split; [now left|now apply sets_absent]. }
        destruct S as [Wc' S]. split; [destruct Wc'; [now left|right; right; auto]|].
        apply sets_under_lt; [now repeat constructor|exact S]. }
    destruct H as [F S].
    assert (K' : kids_ok (set_child cs (N.to_nat x) c')) by now apply kids_set.
    assert (C : (1 <= count_children (set_child cs (N.to_nat x) c'))%nat).
    { pose proof (count_set cs (N.to_nat x) c' ltac:(lia)). pose proof (occ_le (get_child cs (N.to_nat x))). lia. }
    split; [right; now apply reduce_full_wf|].
    eapply sets_ext; [reflexivity|intro; now apply reduce_full_lookup|]. apply sets_full; [lia|exact S].
Qed.

Theorem delete_spec : forall n, wf n -> forall k, vkey k ->
  wfr (delete n k) /\
  forall q, vkey q -> lookup (delete n k) q = if list_eq_dec N.eq_dec q k then None else lookup n q.
Proof. intros n W k Vk. destruct (delete_sets n k W Vk) as [Wd S]. split; [exact Wd|now apply sets_if]. Qed.

Definition same (a b : node) : Prop := forall q, vkey q -> lookup a q = lookup b q.
Definition has_key (n : node) (q : list N) : Prop := vkey q /\ lookup n q <> None.

Lemma same_sym a b : same a b -> same b a.
Proof. intros H q Vq. symmetry. now apply H. Qed.

Lemma full_child_key cs i : kids_ok cs -> get_child cs i <> NNil ->
  (wf (get_child cs i) -> exists q, has_key (get_child cs i) q) ->
  exists q, has_key (NFull cs) (N.of_nat i :: q).
Proof.
  intros K Hi IH.
  destruct (kids_slot cs i K (occupied_lt cs i Hi)) as [E|[[E (v & Ev & _)]|[Hlt W]]]; [contradiction| |].
  - exists []. rewrite E. split; [apply vkey_term|]. rewrite lookup_full, <- E, Nat2N.id, Ev. discriminate.
  - destruct (IH W) as (q & Vq & Lq). exists q. split; [now apply vkey_cons_lt|]. now rewrite lookup_full, Nat2N.id.
Qed.
Lemma wf_has_key n : wf n -> exists q, has_key n q.
Proof.
  induction 1 as [k c W IH|cs W IH] using wf_node_ind.
  - destruct (wf_short_inv k c W) as [(u & -> & Vk & Hu)|(cs & -> & Hne & Hlt & Wf)].
    + exists k. split; [exact Vk|]. rewrite lookup_short_self. discriminate.
    + destruct (IH Wf) as (q & Vq & Lq). exists (k ++ q). split; [now apply vkey_app_lt|now rewrite lookup_short_app].
  - apply wf_full_iff in W as [K Hcnt]. destruct (first_child_spec cs 0 ltac:(lia)) as (i & _ & Hi).
    destruct (full_child_key cs i K Hi (IH i)) as (q & Hq). eauto.
Qed.
Lemma same_nil n : wf n -> same n NNil -> False.
Proof. intros W S. destruct (wf_has_key n W) as (q & Vq & Lq). now rewrite (S q Vq) in Lq. Qed.

Lemma wfr_canonical c1 c2 : (wf c1 -> wf c2 -> same c1 c2 -> c1 = c2) -> wfr c1 -> wfr c2 -> same c1 c2 -> c1 = c2.
Proof.
  intros H [->|W1] [->|W2] S; [reflexivity| | |now apply H].
  - destruct (same_nil c2 W2 (same_sym _ _ S)).
  - destruct (same_nil c1 W1 S).
Qed.

Lemma full_two_keys cs : wf (NFull cs) ->
  exists x y qx qy, x <> y /\ has_key (NFull cs) (x :: qx) /\ has_key (NFull cs) (y :: qy).
Proof.
  intros [K Hcnt]%wf_full_iff. destruct (count_two cs Hcnt) as (i & j & Hij & Hi & Hj).
  destruct (full_child_key cs i K Hi (wf_has_key _)) as (qi & Hqi).
  destruct (full_child_key cs j K Hj (wf_has_key _)) as (qj & Hqj).
  exists (N.of_nat i), (N.of_nat j), qi, qj. split; [lia|auto].
Qed.

Lemma short_keys_along k c q : lookup (NShort k c) q <> None -> exists r, q = k ++ r.
Proof.
  intro H. destruct (split3_total q k) as [r ->|s x ra y rb Hne -> ->|y rb ->]; [eauto|..].
  - now rewrite lookup_short_fork in H.
  - now rewrite lookup_short_cut in H.
Qed.

Lemma common_prefix_of_fork {A} (a : list A) x y ta tb b ra rb :
  x <> y -> a ++ x :: ta = b ++ ra -> a ++ y :: tb = b ++ rb -> exists r, a = b ++ r.
Proof.
  intros Hne. revert a. induction b as [|z b IH]; intros a H1 H2; [exists a; reflexivity|].
  destruct a as [|w a]; cbn in H1, H2.
  - injection H1 as E1 _. injection H2 as E2 _. congruence.
  - injection H1 as E1 H1. injection H2 as _ H2. subst w. destruct (IH a H1 H2) as (r & ->). exists r. reflexivity.
Qed.

(* the key of a short node is the longest common prefix of the keys below it *)
Lemma short_stem k c k2 : wf (NShort k c) ->
  (forall q, has_key (NShort k c) q -> exists r, q = k2 ++ r) -> exists r, k = k2 ++ r.
Proof.
  intros W H. destruct (wf_short_inv k c W) as [(u & -> & Vk & Hu)|(cs & -> & Hne & Hlt & Wf)].
  - apply H. split; [exact Vk|]. rewrite lookup_short_self. discriminate.
  - destruct (full_two_keys cs Wf) as (x & y & qx & qy & Hxy & [Vx Lx] & [Vy Ly]).
    destruct (H (k ++ x :: qx)) as (r1 & E1); [split; [now apply vkey_app_lt|now rewrite lookup_short_app]|].
    destruct (H (k ++ y :: qy)) as (r2 & E2); [split; [now apply vkey_app_lt|now rewrite lookup_short_app]|].
    exact (common_prefix_of_fork k x y qx qy k2 r1 r2 Hxy E1 E2).
Qed.
Lemma short_same_prefix k1 c1 k2 c2 : wf (NShort k1 c1) ->
  same (NShort k1 c1) (NShort k2 c2) -> exists r, k1 = k2 ++ r.
Proof.
  intros W1 S. apply (short_stem k1 c1 k2 W1). intros q [Vq Lq]. apply (short_keys_along k2 c2). now rewrite <- S.
Qed.
(* each key is a prefix of the other *)
Lemma short_same_key k1 c1 k2 c2 : wf (NShort k1 c1) -> wf (NShort k2 c2) ->
  same (NShort k1 c1) (NShort k2 c2) -> k1 = k2.
Proof.
  intros W1 W2 S. destruct (short_same_prefix _ _ _ _ W1 S) as (r & E1).
  destruct (short_same_prefix _ _ _ _ W2 (same_sym _ _ S)) as (r' & E2).
  rewrite E2, <- app_assoc in E1. rewrite <- (app_nil_r k1) in E1 at 1.
  apply app_inv_head in E1. symmetry in E1. apply app_eq_nil in E1 as [-> _]. now rewrite app_nil_r in E2.
Qed.
Lemma short_full_differ k c cs : wf (NShort k c) -> wf (NFull cs) -> same (NShort k c) (NFull cs) -> False.
Proof.
  intros W Wf S. destruct (full_two_keys cs Wf) as (x & y & qx & qy & Hxy & [Vx Lx] & [Vy Ly]).
  rewrite <- S in Lx, Ly by assumption.
  apply short_keys_along in Lx as (r1 & E1), Ly as (r2 & E2).
  destruct k as [|z k]; [|injection E1 as -> _; injection E2 as -> _; contradiction].
  destruct (wf_short_inv _ _ W) as [(u & _ & Vk & _)|(cs' & _ & Hne & _)]; [now apply vkey_nonempty in Vk|contradiction].
Qed.

Theorem canonical : forall n1, wf n1 -> forall n2, wf n2 -> same n1 n2 -> n1 = n2.
Proof.
  induction 1 as [k1 c1 W1 IH|cs1 W1 IH] using wf_node_ind; intros n2 W2 S.
  - destruct n2 as [| |k2 c2|cs2]; [inversion W2..| |destruct (short_full_differ _ _ _ W1 W2 S)].
    (* two short nodes: the same key, then both leaves or both extensions *)
    destruct (short_same_key _ _ _ _ W1 W2 S). f_equal.
    destruct (wf_short_inv _ _ W1) as [(u1 & -> & Vk & _)|(cs1 & -> & _ & Hlt & Wf1)];
      destruct (wf_short_inv _ _ W2) as [(u2 & -> & Vk' & _)|(cs2 & -> & _ & Hlt' & Wf2)].
    + specialize (S k1 Vk). rewrite !lookup_short_self in S. now injection S as ->.
    + destruct (vkey_not_lt16 k1 Vk Hlt').
    + destruct (vkey_not_lt16 k1 Vk' Hlt).
    + apply (IH Wf1 _ Wf2). intros q Vq. specialize (S (k1 ++ q) (vkey_app_lt _ _ Hlt Vq)). now rewrite !lookup_short_app in S.
  - destruct n2 as [| |k2 c2|cs2]; [inversion W2..|destruct (short_full_differ _ _ _ W2 W1 (same_sym _ _ S))|].
    (* two full nodes: slot by slot *)
    pose proof W1 as [K1 _]%wf_full_iff. pose proof W2 as [K2 _]%wf_full_iff.
    pose proof K1 as [Hlen1 _]. pose proof K2 as [Hlen2 _].
    f_equal. apply (nth_ext _ _ NNil NNil); [congruence|]. intros i Hi. fold (get_child cs1 i) (get_child cs2 i).
    pose proof (kids_slot cs1 i K1 Hi) as Hs1. pose proof (kids_slot cs2 i K2 ltac:(lia)) as Hs2.
    assert (Sc : forall q, vkey (N.of_nat i :: q) -> lookup (get_child cs1 i) q = lookup (get_child cs2 i) q).
    { intros q Vq. specialize (S _ Vq). now rewrite !lookup_full, Nat2N.id in S. }
    destruct (N.eq_dec (N.of_nat i) 16) as [E|E].
    + specialize (Sc [] ltac:(rewrite E; apply vkey_term)). rewrite E in Hs1, Hs2.
      destruct (slot_term _ Hs1) as [E1|(v1 & E1 & _)], (slot_term _ Hs2) as [E2|(v2 & E2 & _)];
        rewrite E1, E2 in *; cbn in Sc; congruence.
    + assert (Hlt : N.of_nat i < 16) by lia.
      apply wfr_canonical; [intros; now apply IH|now apply (slot_lt (N.of_nat i))..|].
      intros q Vq. now apply Sc, vkey_cons_lt.
Qed.

Theorem canonical_root n1 n2 : wfr n1 -> wfr n2 -> same n1 n2 -> n1 = n2.
Proof. apply wfr_canonical. intros. now apply canonical. Qed.

(* Trie.TryUpdate on nibble keys: an empty value deletes *)
Definition upd (n : node) (k : list N) (v : bytes) : node :=
  match v with [] => delete n k | _ => insert n k (NVal v) end.
(* the latest operation is at the head *)
Definition run_ops (ops : list (list N * bytes)) : node :=
  fold_right (fun kv n => upd n (fst kv) (snd kv)) NNil ops.
Fixpoint map_get (ops : list (list N * bytes)) (q : list N) : option bytes :=
  match ops with
  | [] => None
  | (k, v) :: t => if list_eq_dec N.eq_dec q k then (match v with [] => None | _ => Some v end) else map_get t q
  end.

Lemma upd_spec n k v : wfr n -> vkey k ->
  wfr (upd n k v) /\ sets k (match v with [] => None | _ => Some v end) n (upd n k v).
Proof.
  intros Hn Vk. destruct v as [|v0 vt]; cbn [upd].
  - destruct Hn as [->|W]; [|now apply delete_sets]. split; [now left|now apply sets_absent].
  - destruct (insert_spec n k (v0 :: vt) Hn Vk) as [W S]; [discriminate|]. split; [now right|exact S].
Qed.

Theorem run_ops_spec ops q : Forall (fun kv => vkey (fst kv)) ops -> vkey q ->
  wfr (run_ops ops) /\ lookup (run_ops ops) q = map_get ops q.
Proof.
  intros Ho Vq. induction Ho as [|[k v] t Vk _ [W L]]; [split; [now left|reflexivity]|].
  cbn [run_ops fold_right map_get fst snd] in *. fold (run_ops t).
  destruct (upd_spec (run_ops t) k v W Vk) as [W' S]. split; [exact W'|].
  now rewrite (sets_if _ _ _ _ S q Vq), L.
Qed.

Theorem history_independent ops1 ops2 :
  Forall (fun kv => vkey (fst kv)) ops1 -> Forall (fun kv => vkey (fst kv)) ops2 ->
  (forall q, vkey q -> map_get ops1 q = map_get ops2 q) ->
  run_ops ops1 = run_ops ops2 /\ forall H, root_hash H (run_ops ops1) = root_hash H (run_ops ops2).
Proof.
  intros H1 H2 E.
  assert (Eq : run_ops ops1 = run_ops ops2).
  { apply canonical_root.
    - exact (proj1 (run_ops_spec ops1 [16] H1 vkey_term)).
    - exact (proj1 (run_ops_spec ops2 [16] H2 vkey_term)).
    - intros q Vq. rewrite (proj2 (run_ops_spec ops1 q H1 Vq)), (proj2 (run_ops_spec ops2 q H2 Vq)). now apply E. }
  split; [exact Eq|]. intro H. now rewrite Eq.
Qed.

Fixpoint alist_get (l : list (list N * bytes)) (q : list N) : option bytes :=
  match l with
  | [] => None
  | (k, v) :: t => if list_eq_dec N.eq_dec q k then Some v else alist_get t q
  end.
Definition insert_all (l : list (list N * bytes)) : node :=
  fold_right (fun kv n => insert n (fst kv) (NVal (snd kv))) NNil l.

Lemma insert_all_run l : Forall (fun kv => vkey (fst kv) /\ snd kv <> []) l ->
  Forall (fun kv => vkey (fst kv)) l /\ insert_all l = run_ops l /\ forall q, alist_get l q = map_get l q.
Proof.
  induction 1 as [|[k v] t [Vk Hv] _ (IH0 & IH1 & IH2)]; [repeat split; constructor|].
  cbn [fst snd] in *. destruct v as [|v0 vt]; [contradiction|]. split; [now constructor|]. split.
  - cbn [insert_all run_ops fold_right fst snd upd]. fold (insert_all t) (run_ops t). now rewrite IH1.
  - intro q. cbn [alist_get map_get]. now rewrite IH2.
Qed.

Theorem lookup_insert_all l q :
  Forall (fun kv => vkey (fst kv) /\ snd kv <> []) l -> vkey q ->
  wfr (insert_all l) /\ lookup (insert_all l) q = alist_get l q.
Proof. intros (Hl & -> & ->)%insert_all_run. now apply run_ops_spec. Qed.

Theorem insert_history_independent l1 l2 :
  Forall (fun kv => vkey (fst kv) /\ snd kv <> []) l1 ->
  Forall (fun kv => vkey (fst kv) /\ snd kv <> []) l2 ->
  (forall q, vkey q -> alist_get l1 q = alist_get l2 q) ->
  insert_all l1 = insert_all l2 /\ forall H, root_hash H (insert_all l1) = root_hash H (insert_all l2).
Proof.
  intros (H1 & -> & E1)%insert_all_run (H2 & -> & E2)%insert_all_run E.
  apply history_independent; [exact H1|exact H2|]. intros q Vq. rewrite <- E1, <- E2. now apply E.
Qed.
