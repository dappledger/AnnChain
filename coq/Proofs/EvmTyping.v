(* Type safety of the interpreter model: every value the machine holds is of its kind - stack
   entries and storage keys and values are 256-bit words, memory cells are bytes, memory never
   exceeds what the model sizes - in every state of every run, for every program. *)
From Coq Require Import ZArith Bool List Lia.
From AnnVerif Require Import Model.EvmArith Model.Keccak Model.EvmCore Proofs.EvmProofs Proofs.EvmCoreProofs.
Import ListNotations.
Open Scope Z_scope.

Definition byte (x : Z) : Prop := 0 <= x < 256.

(* the form of [word] that the bitwise instructions keep *)
Lemma word_bits x : word x <-> 0 <= x /\ forall m, 256 <= m -> Z.testbit x m = false.
Proof.
  split.
  - intro Hx. split; [apply Hx|]. intros m Hm. rewrite <- (Z.mod_small x (2 ^ 256)) by exact Hx.
    apply Z.mod_pow2_bits_high. lia.
  - intros [Hx H]. assert (E : x mod W = x).
    { apply Z.bits_inj'. intros k Hk. unfold W. destruct (Z.lt_ge_cases k 256) as [L|G].
      - apply Z.mod_pow2_bits_low. exact L.
      - rewrite Z.mod_pow2_bits_high, H by lia. reflexivity. }
    rewrite <- E. apply Z.mod_pos_bound. exact W_pos.
Qed.
Lemma land_word a b : word a -> word b -> word (Z.land a b).
Proof.
  intros [Ha Ba]%word_bits _. apply word_bits. split; [apply Z.land_nonneg; left; exact Ha|].
  intros m Hm. rewrite Z.land_spec, (Ba m Hm). reflexivity.
Qed.
Lemma lor_word a b : word a -> word b -> word (Z.lor a b).
Proof.
  intros [Ha Ba]%word_bits [Hb Bb]%word_bits. apply word_bits. split; [apply Z.lor_nonneg; split; assumption|].
  intros m Hm. rewrite Z.lor_spec, (Ba m Hm), (Bb m Hm). reflexivity.
Qed.
Lemma lxor_word a b : word a -> word b -> word (Z.lxor a b).
Proof.
  intros [Ha Ba]%word_bits [Hb Bb]%word_bits. apply word_bits. split; [apply Z.lxor_nonneg; split; intros _; assumption|].
  intros m Hm. rewrite Z.lxor_spec, (Ba m Hm), (Bb m Hm). reflexivity.
Qed.
Lemma b2w_word c : word (b2w c).
Proof. destruct c; cbn [b2w]; [|exact word0]. split; [lia|apply (Z.pow_gt_1 2 256); lia]. Qed.
Lemma pow2_lt_W k : 0 <= k < 256 -> 0 < 2 ^ k < W.
Proof. intros Hk. unfold W. split; [apply Z.pow_pos_nonneg; lia|apply Z.pow_lt_mono_r; lia]. Qed.

Lemma sdiv_word a b : word (op_sdiv a b).
Proof. unfold op_sdiv. destruct (b =? 0); [exact word0|apply wrap_word]. Qed.
Lemma smod_word a b : word (op_smod a b).
Proof. unfold op_smod. destruct (b =? 0); [exact word0|apply wrap_word]. Qed.
Lemma exp_word a b : word b -> word (op_exp a b).
Proof.
  intros Hb. destruct b as [|p|p]; [apply (b2w_word true)|cbn [op_exp]|destruct Hb; lia].
  rewrite exp_pos_spec. apply wrap_word.
Qed.
Lemma signextend_word a b : word a -> word b -> word (op_signextend a b).
Proof.
  intros Ha Hb. unfold op_signextend. destruct (a <? 31) eqn:E; [|exact Hb]. apply Z.ltb_lt in E.
  assert (Hk : 0 <= a * 8 + 7 < 256) by (destruct Ha; lia).
  pose proof (pow2_lt_W _ Hk) as Hp.
  destruct (Z.testbit b (a * 8 + 7)); [apply lor_word|apply land_word]; try exact Hb; unfold word; lia.
Qed.
Lemma not_word a : word a -> word (op_not a).
Proof. unfold op_not, word. lia. Qed.
Lemma byte_word a b : word (op_byte a b).
Proof.
  unfold op_byte. destruct (a <? 32); [|exact word0].
  pose proof (Z.mod_pos_bound (b / 2 ^ (8 * (31 - a))) 256). pose proof (pow2_lt_W 8).
  unfold word. change (2 ^ 8) with 256 in *. lia.
Qed.
Lemma shl_word a b : word (op_shl a b).
Proof. unfold op_shl. destruct (a <? 256); [apply wrap_word|exact word0]. Qed.
Lemma shr_word s v : word s -> word v -> word (op_shr s v).
Proof.
  intros [Hs _] [Hv0 Hv1]. unfold op_shr. destruct (s <? 256); [|exact word0].
  assert (Hp : 0 < 2 ^ s) by (apply Z.pow_pos_nonneg; lia).
  split; [apply Z.div_pos; lia|]. apply Z.le_lt_trans with v; [|exact Hv1]. apply Z.div_le_upper_bound; nia.
Qed.
Lemma sar_word a b : word (op_sar a b).
Proof.
  unfold op_sar. destruct (a <? 256); [apply wrap_word|]. destruct (sgn b <? 0); [|exact word0].
  pose proof W_pos. unfold word. lia.
Qed.

Lemma eval_word op a b c r : eval op a b c = Some r -> word a -> word b -> word c -> word r.
Proof.
  intros E Ha Hb Hc. unfold eval in E.
  repeat match type of E with
         | match ?x with _ => _ end = _ => destruct x; try discriminate
         end.
  all: injection E as <-.
  all: cbv [op_add op_mul op_sub op_lt op_gt op_slt op_sgt op_eq op_iszero op_and op_or op_xor].
  all: auto using wrap_word, b2w_word, land_word, lor_word, lxor_word, div_word, sdiv_word, mod_word, smod_word,
         addmod_word, mulmod_word, exp_word, signextend_word, not_word, byte_word, shl_word, shr_word, sar_word.
Qed.

Lemma acc_bytes_bound l : forall acc, Forall byte l -> 0 <= acc -> 0 <= word_of_bytes_acc l acc < (acc + 1) * 256 ^ Z.of_nat (length l).
Proof.
  induction l as [|x t IH]; intros acc Hl Ha; cbn [word_of_bytes_acc length]; [cbn; lia|].
  inversion Hl as [|? ? Hx Ht]; subst. unfold byte in Hx.
  specialize (IH (acc * 256 + x) Ht ltac:(nia)). rewrite Nat2Z.inj_succ, Z.pow_succ_r by lia.
  assert (0 < 256 ^ Z.of_nat (length t)) by (apply Z.pow_pos_nonneg; lia). nia.
Qed.
Lemma word_of_bytes_word l : Forall byte l -> (length l <= 32)%nat -> word (word_of_bytes l).
Proof.
  intros Hl Hn. unfold word_of_bytes. pose proof (acc_bytes_bound l 0 Hl ltac:(lia)) as [A B]. split; [exact A|].
  eapply Z.lt_le_trans; [exact B|]. unfold W. change (2 ^ 256) with (256 ^ 32). rewrite Z.mul_1_l.
  apply Z.pow_le_mono_r; lia.
Qed.
Lemma bytes_of_word_bytes n w : Forall byte (bytes_of_word n w).
Proof.
  revert w. induction n as [|k IH]; intro w; cbn [bytes_of_word]; [constructor|].
  apply Forall_app. split; [apply IH|]. constructor; [|constructor]. apply Z.mod_pos_bound. lia.
Qed.
Lemma repeat0_bytes n : Forall byte (repeat 0 n).
Proof. induction n; cbn; constructor; [unfold byte; lia|assumption]. Qed.
Lemma Forall_firstn {A} (P : A -> Prop) n : forall l, Forall P l -> Forall P (firstn n l).
Proof. induction n as [|k IH]; intros l H; [constructor|]. destruct H; constructor; auto. Qed.
Lemma Forall_skipn {A} (P : A -> Prop) n : forall l, Forall P l -> Forall P (skipn n l).
Proof. induction n as [|k IH]; intros l H; [exact H|]. destruct H; [constructor|apply IH; assumption]. Qed.
Lemma slice_bytes l off len : Forall byte l -> Forall byte (slice l off len).
Proof. intro H. unfold slice. apply Forall_firstn. apply Forall_app. split; [apply Forall_skipn; exact H|apply repeat0_bytes]. Qed.
Lemma slice_length l off len : length (slice l off len) = len.
Proof. unfold slice. rewrite firstn_length, app_length, repeat_length. lia. Qed.
Lemma get_data_bytes d off len : Forall byte d -> Forall byte (get_data d off len).
Proof. intro H. unfold get_data. destruct (_ <=? _); [apply repeat0_bytes|apply slice_bytes; exact H]. Qed.
Lemma get_data_length d off len : length (get_data d off len) = len.
Proof. unfold get_data. destruct (_ <=? _); [apply repeat_length|apply slice_length]. Qed.
Lemma mem_resize_bytes m n : Forall byte m -> Forall byte (mem_resize m n).
Proof. intro H. unfold mem_resize. destruct (Nat.ltb _ _); [apply Forall_app; split; [exact H|apply repeat0_bytes]|exact H]. Qed.
Lemma mem_write_bytes m off bs : Forall byte m -> Forall byte bs -> Forall byte (mem_write m off bs).
Proof. intros Hm Hb. unfold mem_write. apply Forall_app. split; [apply Forall_firstn; exact Hm|apply Forall_app; split; [exact Hb|apply Forall_skipn; exact Hm]]. Qed.
Lemma mslice_bytes m off len : Forall byte m -> Forall byte (mslice m off len).
Proof. intro H. unfold mslice. destruct (len =? 0); [constructor|apply slice_bytes; exact H]. Qed.

Lemma keccak_round_length s rc : length (keccak_round s rc) = 25%nat.
Proof.
  unfold keccak_round. cbv zeta.
  match goal with |- length (match ?c with [] => [] | h :: t => _ end) = _ => assert (Hc : length c = 25%nat) by (rewrite map_length; reflexivity); destruct c as [|h t]; [discriminate|exact Hc] end.
Qed.
Lemma keccak_f_length s : length (keccak_f s) = 25%nat.
Proof.
  unfold keccak_f, round_consts. cbn [fold_left]. apply keccak_round_length.
Qed.
Lemma absorb_length s blk : length (absorb s blk) = 25%nat.
Proof. unfold absorb. apply keccak_f_length. Qed.
Lemma absorb_all_length fuel : forall s l, length s = 25%nat -> length (absorb_all fuel s l) = 25%nat.
Proof.
  induction fuel as [|k IH]; intros s l Hs; cbn [absorb_all]; [exact Hs|].
  destruct l; [exact Hs|]. apply IH. apply absorb_length.
Qed.
Lemma bytes_of_lane_bytes n w : Forall byte (bytes_of_lane n w).
Proof. revert w. induction n as [|k IH]; intro w; cbn [bytes_of_lane]; constructor; [apply Z.mod_pos_bound; lia|apply IH]. Qed.
Lemma bytes_of_lane_length n w : length (bytes_of_lane n w) = n.
Proof. revert w. induction n as [|k IH]; intro w; cbn [bytes_of_lane length]; [reflexivity|now rewrite IH]. Qed.
Lemma keccak256_bytes msg : Forall byte (keccak256 msg) /\ (length (keccak256 msg) <= 32)%nat.
Proof.
  unfold keccak256. cbv zeta. set (s := absorb_all _ _ _).
  assert (Hs : length s = 25%nat) by (apply absorb_all_length; apply repeat_length).
  destruct s as [|a [|b [|c [|d t]]]]; try discriminate. cbn [firstn flat_map].
  split.
  - repeat (apply Forall_app; split); try apply bytes_of_lane_bytes. constructor.
  - rewrite !app_length, !bytes_of_lane_length. cbn. lia.
Qed.
Lemma be_word_eq l acc : be_word l acc = word_of_bytes_acc l acc.
Proof. revert acc. induction l as [|x t IH]; intro acc; cbn; [reflexivity|apply IH]. Qed.
(* stated as an equation and rewritten with: conversion between the two sides may evaluate the hash *)
Lemma keccak_word_eq msg : keccak_word msg = word_of_bytes (keccak256 msg).
Proof. unfold keccak_word, word_of_bytes. apply be_word_eq. Qed.
Lemma keccak_word_word msg : word (keccak_word msg).
Proof. rewrite keccak_word_eq. apply word_of_bytes_word; apply keccak256_bytes. Qed.

Record wf_env (e : env) (code : list Z) : Prop := mkWfEnv {
  wf_address : word (e_address e); wf_origin : word (e_origin e); wf_caller : word (e_caller e);
  wf_value : word (e_value e); wf_gasprice : word (e_gasprice e); wf_coinbase : word (e_coinbase e);
  wf_time : word (e_time e); wf_number : word (e_number e); wf_difficulty : word (e_difficulty e);
  wf_gaslimit : word (e_gaslimit e);
  wf_data : Forall byte (e_data e); wf_datalen : Z.of_nat (length (e_data e)) < 2 ^ 64;
  wf_code : Forall byte code; wf_codelen : Z.of_nat (length code) < 2 ^ 64;
  wf_blockhash : forall n, word (e_blockhash e n) }.

Definition kvs_typed (s : list (Z * Z)) : Prop := Forall (fun kv => word (fst kv) /\ word (snd kv)) s.
Definition typed (code : list Z) (m : mstate) : Prop :=
  Forall word (m_stack m) /\ Forall byte (m_mem m) /\ Z.of_nat (length (m_mem m)) <= 65536 /\ kvs_typed (m_store m) /\
  (m_pc m <= length code + 33)%nat.

Lemma st_word s k : Forall word s -> word (st s k).
Proof.
  intro H. unfold st. destruct (nth_in_or_default k s 0) as [Hin| ->]; [|apply word0]. rewrite Forall_forall in H. apply H. exact Hin.
Qed.
Lemma small_word x : 0 <= x < 2 ^ 64 + 100000 -> word x.
Proof. intros [A B]. split; [exact A|]. unfold W. assert (2 ^ 64 + 100000 < 2 ^ 256) by (vm_compute; reflexivity). lia. Qed.
Lemma sload_word s k : kvs_typed s -> word (sload s k).
Proof.
  induction s as [|[k' v] t IH]; intro H; cbn [sload]; [apply word0|]. inversion H as [|? ? Hx Ht]; subst.
  destruct (k' =? k); [apply Hx|apply IH; exact Ht].
Qed.

Lemma mem_need_size off len n : mem_need off len = MSize n -> 0 <= off -> 0 <= len ->
  0 < len /\ off + len <= Z.of_nat n /\ Z.of_nat n <= 65536.
Proof.
  unfold mem_need. destruct (Z.eqb_spec len 0) as [|Hl]; [discriminate|].
  destruct (_ <=? _); [discriminate|]. destruct (_ <? _); [discriminate|].
  destruct (1099511627744 <? _); [discriminate|]. destruct (Z.ltb_spec 65536 ((off + len + 31) / 32 * 32)) as [|Hs]; [discriminate|].
  intros E Ho Hlen. injection E as <-.
  pose proof (Z.div_mod (off + len + 31) 32 ltac:(lia)) as D. pose proof (Z.mod_pos_bound (off + len + 31) 32 ltac:(lia)) as M.
  rewrite Z2Nat.id by lia. lia.
Qed.
Lemma mem_need_never_none off len : 0 < len -> mem_need off len <> MNone.
Proof. intro H. unfold mem_need. destruct (Z.eqb_spec len 0); [lia|]. repeat destruct (_ <=? _); repeat destruct (_ <? _); discriminate. Qed.

Lemma mem_write_length m off bs : (off + length bs <= length m)%nat -> length (mem_write m off bs) = length m.
Proof. intro H. unfold mem_write. rewrite !app_length, firstn_length, skipn_length. lia. Qed.
Lemma mem_resize_length m n : length (mem_resize m n) = Nat.max (length m) n.
Proof. unfold mem_resize. destruct (Nat.ltb_spec (length m) n); [rewrite app_length, repeat_length|]; lia. Qed.
Lemma bytes_of_word_length n w : length (bytes_of_word n w) = n.
Proof. revert w. induction n as [|k IH]; intro w; cbn [bytes_of_word]; [reflexivity|]. rewrite app_length, IH. cbn. lia. Qed.

(* what [sized] establishes before [exec] runs *)
Definition mem_has (mem : list Z) (need : mneed) : Prop :=
  match need with MNone => True | MSize n => (n <= length mem)%nat | _ => False end.
Lemma mem_write_sized mem off len bs : mem_has mem (mem_need off len) -> 0 <= off -> 0 < len ->
  length bs = Z.to_nat len -> length (mem_write mem (Z.to_nat off) bs) = length mem.
Proof.
  intros Hr Ho Hlen Hb. apply mem_write_length. destruct (mem_need off len) eqn:En; try contradiction.
  - exfalso. exact (mem_need_never_none _ _ Hlen En).
  - destruct (mem_need_size _ _ _ En Ho ltac:(lia)) as (_ & B & _). cbn [mem_has] in Hr. lia.
Qed.

Lemma instr_mem_size i s n : Forall word s -> instr_mem i s = MSize n -> Z.of_nat n <= 65536.
Proof.
  intros Hs. assert (W0 := st_word s 0 Hs). assert (W1 := st_word s 1 Hs). assert (W2 := st_word s 2 Hs).
  destruct i; cbn [instr_mem]; try discriminate; intro E;
    (eapply mem_need_size in E; [apply E| |]); try apply W0; try apply W1; try apply W2; lia.
Qed.
Lemma sized_typed code i m m1 : typed code m -> sized i m = inl m1 ->
  typed code m1 /\ mem_has (m_mem m1) (instr_mem i (m_stack m1)).
Proof.
  intros Ht. pose proof Ht as (Hs & Hm & Hl & Hk & Hp). unfold sized.
  destruct (instr_mem i (m_stack m)) as [|n| | |] eqn:Em; intro E; try discriminate; injection E as <-.
  - rewrite Em. split; [exact Ht|exact I].
  - cbn [m_stack m_mem]. rewrite Em. cbn [mem_has]. rewrite mem_resize_length.
    pose proof (instr_mem_size _ _ _ Hs Em). split; [|lia].
    repeat split; cbn; try assumption; [apply mem_resize_bytes; exact Hm|rewrite mem_resize_length; lia].
Qed.

Definition push_ok (i : instr) : Prop := match i with IPush n => (n <= 32)%nat | _ => True end.
Lemma decode_push_ok b : push_ok (decode b).
Proof. destruct (decode b) eqn:E; cbn; try exact I. rewrite <- (decode_push b n E). apply push_len_le. Qed.

(* for the [cbn] of the proof below, which is to show these applied to their arguments *)
Arguments bytes_of_word : simpl never.
Arguments word_of_bytes : simpl never.
Arguments slice : simpl never.
Arguments get_data : simpl never.
Arguments mem_write : simpl never.
Arguments keccak_word : simpl never.

Lemma exec_typed e code i m f : wf_env e code -> typed code m -> push_ok i ->
  mem_has (m_mem m) (instr_mem i (m_stack m)) -> exec e code i m = inl f ->
  Forall word (f_outs f) /\ Forall byte (f_mem f) /\ length (f_mem f) = length (m_mem m) /\ kvs_typed (f_store f).
Proof.
  intros [A1 A2 A3 A4 A5 A6 A7 A8 A9 A10 Ad Adl Ac Acl Abh] (Hs & Hm & Hl & Hk & Hp) Hpush Hr E.
  assert (W0 := st_word (m_stack m) 0 Hs). assert (W1 := st_word (m_stack m) 1 Hs).
  assert (W2 := st_word (m_stack m) 2 Hs).
  assert (Mem : forall mem', Forall byte mem' -> length mem' = length (m_mem m) ->
                Forall word [] /\ Forall byte mem' /\ length mem' = length (m_mem m) /\ kvs_typed (m_store m))
    by (intros mem' Hb Hlen; split; [constructor|]; split; [exact Hb|]; split; [exact Hlen|exact Hk]).
  assert (Same := Mem (m_mem m) Hm eq_refl).
  assert (One : forall v, word v -> Forall word [v] /\ Forall byte (m_mem m) /\ length (m_mem m) = length (m_mem m) /\ kvs_typed (m_store m))
    by (intros v Hv; split; [constructor; [exact Hv|constructor]|]; split; [exact Hm|]; split; [reflexivity|exact Hk]).
  assert (Copy : forall data off src len, Forall byte data -> word off -> word len -> mem_has (m_mem m) (mem_need off len) ->
                 let mem' := if len =? 0 then m_mem m else mem_write (m_mem m) (Z.to_nat off) (get_data data src (Z.to_nat len)) in
                 Forall byte mem' /\ length mem' = length (m_mem m)).
  { intros data off src len Hd Ho Hlen Hr'. cbv zeta. destruct (Z.eqb_spec len 0) as [|Hn]; [split; [exact Hm|reflexivity]|].
    split; [apply mem_write_bytes; [exact Hm|apply get_data_bytes; exact Hd]|].
    apply (mem_write_sized _ _ len); [exact Hr'|apply Ho|destruct Hlen; lia|apply get_data_length]. }
  destruct i; cbn [exec] in E; cbn [instr_mem] in Hr; try discriminate.
  - (* JUMPDEST *) injection E as <-. exact Same.
  - (* pure *) destruct (eval _ _ _ _) eqn:Ev; [|discriminate]. injection E as <-. apply One. eapply eval_word; eauto.
  - (* environment *) injection E as <-. apply One.
    destruct k; cbn [env_val]; try assumption; try apply word0; apply small_word; lia.
  - (* SHA3 *) injection E as <-. apply One. apply keccak_word_word.
  - (* BLOCKHASH *) injection E as <-. apply One. destruct (_ && _); [apply Abh|apply word0].
  - (* CALLDATALOAD *) injection E as <-. apply One.
    apply word_of_bytes_word; [apply get_data_bytes; exact Ad|rewrite get_data_length; lia].
  - (* CALLDATACOPY *) injection E as <-. apply Mem; apply (Copy (e_data e)); assumption.
  - (* CODECOPY *) injection E as <-. apply Mem; apply (Copy code); assumption.
  - (* RETURNDATACOPY *) destruct (_ =? 0); [|discriminate]. injection E as <-. exact Same.
  - (* POP *) injection E as <-. exact Same.
  - (* MLOAD *) injection E as <-. apply One.
    apply word_of_bytes_word; [apply slice_bytes; exact Hm|rewrite slice_length; lia].
  - (* MSTORE *) injection E as <-. apply Mem; [apply mem_write_bytes; [exact Hm|apply bytes_of_word_bytes]|].
    apply (mem_write_sized _ _ 32); [exact Hr|apply W0|lia|apply bytes_of_word_length].
  - (* MSTORE8 *) injection E as <-.
    apply Mem; [apply mem_write_bytes; [exact Hm|constructor; [apply Z.mod_pos_bound; lia|constructor]]|].
    apply (mem_write_sized _ _ 1); [exact Hr|apply W0|lia|reflexivity].
  - (* SLOAD *) injection E as <-. apply One. apply sload_word; exact Hk.
  - (* SSTORE *) injection E as <-. cbn. repeat split; try assumption; try reflexivity; [constructor|]. constructor; [split; assumption|exact Hk].
  - (* JUMP *) injection E as <-. exact Same.
  - (* JUMPI *) injection E as <-. exact Same.
  - (* PUSH *) injection E as <-. apply One. cbn in Hpush.
    apply word_of_bytes_word; [apply slice_bytes; exact Ac|rewrite slice_length; exact Hpush].
  - (* DUP *) injection E as <-. cbn. repeat split; try assumption; try reflexivity.
    constructor; [apply st_word; exact Hs|apply Forall_firstn; exact Hs].
  - (* SWAP *) injection E as <-. cbn. repeat split; try assumption; try reflexivity. constructor; [apply st_word; exact Hs|].
    apply Forall_app. split; [apply Forall_firstn, (Forall_skipn word 1); exact Hs|constructor; [apply st_word; exact Hs|constructor]].
  - (* LOG *) injection E as <-. exact Same.
Qed.

Theorem step_typed e code m m' : wf_env e code -> typed code m -> step e code m = inl m' -> typed code m'.
Proof.
  intros We Ht E. pose proof (step_pc_in _ _ _ _ E) as Hlt.
  destruct (step_inv _ _ _ _ E) as (i & m1 & f & pc & Hi & _ & _ & Es & Ex & -> & Hpc).
  destruct (sized_typed code i m m1 Ht Es) as [Ht1 Hr].
  assert (Hpush : push_ok i) by (rewrite Hi; apply decode_push_ok).
  destruct (exec_typed e code i m1 f We Ht1 Hpush Hr Ex) as (Ho & Hfm & Hfl & Hfk).
  destruct Ht as (Hs & _). destruct Ht1 as (_ & _ & Hl1 & _).
  repeat split; cbn [m_stack m_mem m_store m_pc]; try assumption.
  - apply Forall_app. split; [exact Ho|apply Forall_skipn; exact Hs].
  - rewrite Hfl. exact Hl1.
  - (* the program counter: one on, past a PUSH operand of at most 32 bytes, or to a place in the code *)
    pose proof (exec_pc _ _ _ _ _ Ex) as Hi'. destruct (f_pc f) as [|k|d].
    + lia.
    + rewrite Hi' in Hpush. cbn in Hpush. lia.
    + destruct Hpc as [Ev ->]. unfold valid_dest in Ev. destruct (Z.ltb_spec d (Z.of_nat (length code))); [lia|discriminate].
Qed.

Lemma init_typed code store : kvs_typed store -> typed code (init_state store).
Proof. intro H. repeat split; cbn; try constructor; try assumption; lia. Qed.

Theorem run_typed fuel e code : wf_env e code -> forall m, typed code m -> Forall (typed code) (states fuel e code m).
Proof.
  intro We. apply states_Forall. intros m m' Hm Es. exact (step_typed _ _ _ _ We Hm Es).
Qed.
