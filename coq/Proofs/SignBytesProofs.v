(* Injectivity of the sign-bytes: the canonical JSON of a vote or proposal determines the chain
   id and every field.  Method: each variable field is self-delimiting given the character that
   follows it (a digit string followed by a non-digit, a hex string or an escaped string followed
   by an unescaped quote), so equal byte strings can be taken apart field by field; digit strings,
   hex strings and escape tokens are read back by an inverse of their printer. *)
From Coq Require Import List NArith ZArith Lia ZifyBool Bool String Ascii Decimal DecimalZ.
From AnnVerif Require Import Base.Bytes Model.SignBytes.
Import ListNotations.

Ltac lit_goal :=
  repeat match goal with
  | |- context [str ?s] => let v := eval vm_compute in (str s) in change (str s) with v
  end.

Ltac strip E :=
  repeat match type of E with
  | (N.pos _ :: _ = N.pos _ :: _) => injection E as E
  | (N0 :: _ = N0 :: _) => injection E as E
  end.

Lemma run_term (P : N -> Prop) a : forall b x1 r1 x2 r2, Forall P a -> Forall P b -> ~ P x1 -> ~ P x2 ->
  a ++ x1 :: r1 = b ++ x2 :: r2 -> a = b /\ x1 :: r1 = x2 :: r2.
Proof.
  induction a as [|c a IH]; intros [|d b] x1 r1 x2 r2 Ha Hb N1 N2 E; cbn [List.app] in E.
  - auto.
  - injection E as -> _. inversion Hb. contradiction.
  - injection E as -> _. inversion Ha. contradiction.
  - injection E as -> E. inversion Ha. inversion Hb. destruct (IH b x1 r1 x2 r2) as [-> ->]; auto.
Qed.

Definition is_digit (x : N) : bool := (48 <=? x)%N && (x <=? 57)%N.

Lemma uint_bytes_digits u : Forall (fun x => is_digit x = true) (uint_bytes u).
Proof. induction u; cbn; constructor; auto. Qed.

Fixpoint uint_of (l : bytes) : Decimal.uint :=
  match l with
  | [] => Nil
  | c :: r =>
    match c with
    | 48 => D0 | 49 => D1 | 50 => D2 | 51 => D3 | 52 => D4 | 53 => D5 | 54 => D6 | 55 => D7 | 56 => D8 | _ => D9
    end%N (uint_of r)
  end.
Lemma uint_of_bytes u : uint_of (uint_bytes u) = u.
Proof. induction u; cbn [uint_bytes uint_of]; congruence. Qed.

Lemma uint_term u1 u2 x1 r1 x2 r2 : is_digit x1 = false -> is_digit x2 = false ->
  uint_bytes u1 ++ x1 :: r1 = uint_bytes u2 ++ x2 :: r2 -> u1 = u2 /\ x1 :: r1 = x2 :: r2.
Proof.
  intros H1 H2 E. apply (run_term (fun x => is_digit x = true)) in E as [E Er]; try apply uint_bytes_digits; try congruence.
  split; [|exact Er]. rewrite <- (uint_of_bytes u1), E. apply uint_of_bytes.
Qed.

(* what may follow a number: not a digit, and not the minus sign, which after an empty digit
   string would read as the start of a negative number *)
Definition term_ok (x : N) : Prop := is_digit x = false /\ x <> 45%N.

Lemma uint_no_minus u x r r' : term_ok x -> uint_bytes u ++ x :: r <> 45%N :: r'.
Proof.
  intros [_ Hx] E. pose proof (uint_bytes_digits u) as D.
  destruct (uint_bytes u); injection E as -> _; [contradiction|]. inversion D. discriminate.
Qed.

Lemma dec_term z1 z2 x1 r1 x2 r2 : term_ok x1 -> term_ok x2 ->
  dec z1 ++ x1 :: r1 = dec z2 ++ x2 :: r2 -> z1 = z2 /\ x1 :: r1 = x2 :: r2.
Proof.
  intros T1 T2. unfold dec.
  destruct (Z.to_int z1) as [u1|u1] eqn:E1, (Z.to_int z2) as [u2|u2] eqn:E2; cbn [List.app]; intro E.
  - destruct (uint_term _ _ _ _ _ _ (proj1 T1) (proj1 T2) E) as [-> Er]. split; [|exact Er]. apply to_int_inj. congruence.
  - destruct (uint_no_minus _ _ _ _ T1 E).
  - symmetry in E. destruct (uint_no_minus _ _ _ _ T2 E).
  - injection E as E. destruct (uint_term _ _ _ _ _ _ (proj1 T1) (proj1 T2) E) as [-> Er]. split; [|exact Er]. apply to_int_inj. congruence.
Qed.

Definition wf_bytes (b : bytes) : Prop := Forall (fun x => (x < 256)%N) b.

Lemma hexdigit_not_quote n : (n < 16)%N -> hexdigit n <> 34%N.
Proof. unfold hexdigit. destruct (n <? 10)%N; lia. Qed.

Lemma nibbles x : (x < 256)%N -> (x / 16 < 16)%N /\ (x mod 16 < 16)%N.
Proof. split; [apply N.div_lt_upper_bound|apply N.mod_lt]; lia. Qed.

Lemma hex_no_quote b : wf_bytes b -> Forall (fun c => c <> 34%N) (hex_upper b).
Proof.
  induction 1 as [|x b Hx _ IH]; [constructor|]. destruct (nibbles x Hx).
  cbn [hex_upper flat_map List.app]. repeat constructor; try apply hexdigit_not_quote; assumption.
Qed.

(* the letter for ten is the character [off] + 10 *)
Definition unhex_digit (off c : N) : N := if (c <? 58)%N then (c - 48)%N else (c - off)%N.
Fixpoint unhex (l : bytes) : bytes :=
  match l with
  | h :: l' :: r => (unhex_digit 55 h * 16 + unhex_digit 55 l')%N :: unhex r
  | _ => []
  end.

Lemma unhex_digit_spec off n : (n < 16)%N -> (48 <= off)%N ->
  unhex_digit off (if (n <? 10)%N then (48 + n)%N else (off + n)%N) = n.
Proof.
  intros H Ho. unfold unhex_digit.
  destruct (N.ltb_spec n 10); [destruct (N.ltb_spec (48 + n) 58)|destruct (N.ltb_spec (off + n) 58)]; lia.
Qed.

Lemma unhex_hex b : wf_bytes b -> unhex (hex_upper b) = b.
Proof.
  induction 1 as [|x b Hx _ IH]; [reflexivity|]. destruct (nibbles x Hx).
  cbn [hex_upper flat_map List.app unhex]. fold (hex_upper b). unfold hexdigit.
  rewrite !unhex_digit_spec, IH, N.mul_comm, <- N.div_mod by (assumption || lia). reflexivity.
Qed.

Lemma hex_term b1 b2 r1 r2 : wf_bytes b1 -> wf_bytes b2 ->
  hex_upper b1 ++ 34%N :: r1 = hex_upper b2 ++ 34%N :: r2 -> b1 = b2 /\ r1 = r2.
Proof.
  intros W1 W2 E. apply (run_term (fun c => c <> 34%N)) in E as [E Er]; try (apply hex_no_quote; assumption); try congruence.
  split; [|congruence]. rewrite <- (unhex_hex b1 W1), E. exact (unhex_hex b2 W2).
Qed.

Lemma jhex_term b1 b2 r1 r2 : wf_bytes b1 -> wf_bytes b2 ->
  jhex b1 ++ r1 = jhex b2 ++ r2 -> b1 = b2 /\ r1 = r2.
Proof.
  intros W1 W2. unfold jhex. intro E. cbn [List.app] in E. injection E as E. rewrite <- !app_assoc in E. cbn [List.app] in E.
  apply hex_term in E; auto.
Qed.

(* the chain ids the statements of Props/C18.v speak of; no lemma below needs the restriction *)
Definition ascii_bytes (s : bytes) : Prop := Forall (fun x => (x < 128)%N) s.

Definition unesc1 (l : bytes) : option (N * bytes) :=
  match l with
  | [] => None
  | c :: r =>
    if (c =? 92)%N then
      match r with
      | [] => None
      | d :: r' =>
        if (d =? 117)%N then
          match r' with
          | _ :: _ :: h :: l :: r'' => Some (unhex_digit 87 h * 16 + unhex_digit 87 l, r'')%N
          | _ => None
          end
        else Some (if d =? 110 then 10 else if d =? 114 then 13 else if d =? 116 then 9 else d, r')%N
      end
    else Some (c, r)
  end.

Lemma unesc1_esc1 x r : unesc1 (esc1 x ++ r) = Some (x, r).
Proof.
  unfold esc1.
  destruct (N.eqb_spec x 34) as [->|]; [reflexivity|].
  destruct (N.eqb_spec x 92) as [->|]; [reflexivity|].
  destruct (N.eqb_spec x 10) as [->|]; [reflexivity|].
  destruct (N.eqb_spec x 13) as [->|]; [reflexivity|].
  destruct (N.eqb_spec x 9) as [->|]; [reflexivity|].
  destruct (_ || _) eqn:U; cbn [List.app unesc1 N.eqb Pos.eqb].
  - destruct (nibbles x ltac:(lia)). unfold hexdigit_lower. rewrite !unhex_digit_spec by (assumption || lia).
    rewrite N.mul_comm, <- N.div_mod by lia. reflexivity.
  - rewrite (proj2 (N.eqb_neq x 92)) by assumption. reflexivity.
Qed.

Lemma esc1_inj x y r1 r2 : esc1 x ++ r1 = esc1 y ++ r2 -> x = y /\ r1 = r2.
Proof. intro E. apply (f_equal unesc1) in E. rewrite !unesc1_esc1 in E. injection E as -> ->. auto. Qed.

Lemma esc1_not_quote x r1 r2 : esc1 x ++ r1 <> 34%N :: r2.
Proof.
  intro E. pose proof (f_equal unesc1 E) as U. rewrite unesc1_esc1 in U.
  injection U as -> _. discriminate E.
Qed.

Lemma esc_term s1 : forall s2 r1 r2,
  esc s1 ++ 34%N :: r1 = esc s2 ++ 34%N :: r2 -> s1 = s2 /\ r1 = r2.
Proof.
  induction s1 as [|x s1 IH]; intros [|y s2] r1 r2 E; cbn [esc flat_map List.app] in E.
  - injection E as ->. auto.
  - exfalso. fold (esc s2) in E. rewrite <- app_assoc in E. symmetry in E. exact (esc1_not_quote _ _ _ E).
  - exfalso. fold (esc s1) in E. rewrite <- app_assoc in E. exact (esc1_not_quote _ _ _ E).
  - fold (esc s1) in E. fold (esc s2) in E. rewrite <- !app_assoc in E.
    apply esc1_inj in E as [-> E]. destruct (IH s2 r1 r2 E) as [-> ->]. auto.
Qed.

Lemma jstring_term s1 s2 r1 r2 : jstring s1 ++ r1 = jstring s2 ++ r2 -> s1 = s2 /\ r1 = r2.
Proof.
  unfold jstring. intro E. cbn [List.app] in E. injection E as E. rewrite <- !app_assoc in E. cbn [List.app] in E.
  apply esc_term in E; auto.
Qed.

Local Opaque jhex jstring dec.
Lemma term_comma : term_ok 44%N. Proof. split; [reflexivity|discriminate]. Qed.
Lemma term_brace : term_ok 125%N. Proof. split; [reflexivity|discriminate]. Qed.

Lemma parts_term t1 p1 t2 p2 r1 r2 : wf_bytes p1 -> wf_bytes p2 ->
  parts_json t1 p1 ++ r1 = parts_json t2 p2 ++ r2 -> t1 = t2 /\ p1 = p2 /\ r1 = r2.
Proof.
  intros W1 W2. unfold parts_json. lit_goal. intro E. rewrite <- !app_assoc in E.
  apply app_inv_head in E. apply jhex_term in E as [-> E]; auto.
  apply app_inv_head in E.
  change ([125%N] ++ r1) with (125%N :: r1) in E. change ([125%N] ++ r2) with (125%N :: r2) in E.
  apply (dec_term _ _ _ _ _ _ term_brace term_brace) in E as [-> E]. injection E as ->. auto.
Qed.

Definition wf_bid (b : cbid) : Prop := wf_bytes (cb_hash b) /\ wf_bytes (cb_phash b).

Definition bid_same (a b : cbid) : Prop := cb_hash a = cb_hash b /\ cb_total a = cb_total b /\ cb_phash a = cb_phash b.

Lemma parts_empty_spec b : parts_empty b = true <-> cb_phash b = [] /\ cb_total b = 0%Z.
Proof.
  unfold parts_empty. destruct (cb_phash b); [rewrite Z.eqb_eq; tauto|]. split; [discriminate|intros [H _]; discriminate].
Qed.

Definition parts_member (comma : bool) (b : cbid) : bytes :=
  if parts_empty b then []
  else (if comma then str "," else []) ++ str """parts"":" ++ parts_json (cb_total b) (cb_phash b).

Lemma bid_json_members b : bid_json b =
  match cb_hash b with
  | [] => str "{" ++ parts_member false b ++ str "}"
  | _ => str "{""hash"":" ++ jhex (cb_hash b) ++ parts_member true b ++ str "}"
  end.
Proof. unfold bid_json, parts_member. destruct (cb_hash b), (parts_empty b); reflexivity. Qed.

Lemma parts_member_term c b1 b2 r1 r2 : wf_bytes (cb_phash b1) -> wf_bytes (cb_phash b2) ->
  parts_member c b1 ++ 125%N :: r1 = parts_member c b2 ++ 125%N :: r2 ->
  cb_total b1 = cb_total b2 /\ cb_phash b1 = cb_phash b2 /\ r1 = r2.
Proof.
  intros W1 W2. unfold parts_member. lit_goal.
  destruct (parts_empty b1) eqn:P1, (parts_empty b2) eqn:P2; intro E.
  - apply parts_empty_spec in P1 as [-> ->]. apply parts_empty_spec in P2 as [-> ->]. injection E as ->. auto.
  - destruct c; discriminate E.
  - destruct c; discriminate E.
  - rewrite <- !app_assoc in E. apply app_inv_head in E. apply app_inv_head in E.
    apply parts_term in E as (-> & -> & E); auto. injection E as ->. auto.
Qed.

(* the first member tells whether there is a hash; what follows the hash, or the brace, is the
   optional parts member *)
Lemma bid_term b1 b2 r1 r2 : wf_bid b1 -> wf_bid b2 ->
  bid_json b1 ++ r1 = bid_json b2 ++ r2 -> bid_same b1 b2 /\ r1 = r2.
Proof.
  intros [W1 W1'] [W2 W2']. rewrite !bid_json_members. unfold bid_same. lit_goal.
  destruct (cb_hash b1) as [|h1 t1], (cb_hash b2) as [|h2 t2]; intro E; rewrite <- ?app_assoc in E.
  - injection E as E. apply parts_member_term in E as (-> & -> & ->); auto.
  - exfalso. unfold parts_member in E. destruct (parts_empty b1); discriminate E.
  - exfalso. unfold parts_member in E. destruct (parts_empty b2); discriminate E.
  - apply app_inv_head in E. apply jhex_term in E as [-> E]; auto.
    apply parts_member_term in E as (-> & -> & ->); auto.
Qed.

Definition vote_same (a b : cvote) : Prop :=
  bid_same (cv_bid a) (cv_bid b) /\ cv_height a = cv_height b /\ cv_round a = cv_round b /\ cv_type a = cv_type b.

(* after a decimal field comes a literal that starts with ',' or '}' *)
Ltac dec_field E :=
  cbn [List.app] in E;
  first [ apply (dec_term _ _ _ _ _ _ term_comma term_comma) in E as [-> E]
        | apply (dec_term _ _ _ _ _ _ term_brace term_brace) in E as [-> E] ];
  try (injection E as E).

(* the chain id may be any byte string: the model escapes every byte to a token that reads back *)
Theorem vote_injective c1 c2 v1 v2 : wf_bid (cv_bid v1) -> wf_bid (cv_bid v2) ->
  sign_bytes_vote c1 v1 = sign_bytes_vote c2 v2 -> c1 = c2 /\ vote_same v1 v2.
Proof.
  intros W1 W2. unfold sign_bytes_vote, vote_same. lit_goal. intro E. rewrite <- ?app_assoc in E.
  apply app_inv_head in E. apply jstring_term in E as [-> E].
  apply app_inv_head in E. apply bid_term in E as [Hb E]; auto.
  apply app_inv_head in E. dec_field E.
  strip E. dec_field E.
  strip E. dec_field E.
  auto.
Qed.

Definition proposal_same (a b : cproposal) : Prop :=
  cp_total a = cp_total b /\ cp_phash a = cp_phash b /\ cp_height a = cp_height b /\
  bid_same (cp_pol a) (cp_pol b) /\ cp_polround a = cp_polround b /\ cp_round a = cp_round b.

Theorem proposal_injective c1 c2 p1 p2 :
  wf_bytes (cp_phash p1) -> wf_bytes (cp_phash p2) -> wf_bid (cp_pol p1) -> wf_bid (cp_pol p2) ->
  sign_bytes_proposal c1 p1 = sign_bytes_proposal c2 p2 -> c1 = c2 /\ proposal_same p1 p2.
Proof.
  intros W1 W2 B1 B2. unfold sign_bytes_proposal, proposal_same. lit_goal. intro E. rewrite <- ?app_assoc in E.
  apply app_inv_head in E. apply jstring_term in E as [-> E].
  apply app_inv_head in E. apply parts_term in E as (-> & -> & E); auto.
  apply app_inv_head in E. dec_field E.
  strip E. apply bid_term in E as [Hb E]; auto.
  cbn [List.app] in E. strip E. dec_field E.
  strip E. dec_field E.
  auto 10.
Qed.

Theorem vote_proposal_distinct c1 c2 v p : sign_bytes_vote c1 v <> sign_bytes_proposal c2 p.
Proof.
  unfold sign_bytes_vote, sign_bytes_proposal. lit_goal. intro E. rewrite <- ?app_assoc in E.
  apply app_inv_head in E. apply jstring_term in E as [-> E].
  cbn [List.app] in E. discriminate E.
Qed.
