(* Facts about Base.Bytes: the equality test decides equality; big-endian digits read back; the
   varint size is the number of base-256 digits; written varints and length-prefixed slices are
   self-delimiting, and ReadVarint reads back what WriteVarint / WriteUvarint wrote for every Go
   value. *)
From Coq Require Import List NArith ZArith Lia Bool.
From AnnVerif Require Import Base.Bytes.
Import ListNotations.
Open Scope N_scope.

Lemma bytes_eqb_eq a b : bytes_eqb a b = true <-> a = b.
Proof.
  revert b; induction a as [|x a IH]; intros [|y b]; simpl; split; intro H; try congruence; auto.
  - apply andb_true_iff in H as [H1 H2]. apply N.eqb_eq in H1. apply IH in H2. congruence.
  - inversion H; subst. rewrite N.eqb_refl. simpl. apply IH. reflexivity.
Qed.

Lemma bytes_eqb_refl a : bytes_eqb a a = true.
Proof. apply bytes_eqb_eq. reflexivity. Qed.

Lemma app_inv_length {A} (l1 l2 r1 r2 : list A) :
  length l1 = length l2 -> l1 ++ r1 = l2 ++ r2 -> l1 = l2 /\ r1 = r2.
Proof.
  revert l2; induction l1 as [|x l1 IH]; intros [|y l2] Hl H; simpl in *; try discriminate; auto.
  injection H as -> H. injection Hl as Hl. destruct (IH l2 Hl H) as [-> ->]. auto.
Qed.

Lemma firstn_exact {A} (a b : list A) k : length a = k -> firstn k (a ++ b) = a.
Proof. intros <-. rewrite firstn_app, Nat.sub_diag, firstn_all. apply app_nil_r. Qed.
Lemma skipn_exact {A} (a b : list A) k : length a = k -> skipn k (a ++ b) = b.
Proof. intros <-. rewrite skipn_app, Nat.sub_diag, skipn_all. reflexivity. Qed.

Lemma be_bytes_length k v : length (be_bytes k v) = k.
Proof. revert v; induction k as [|k IH]; intro v; simpl; [reflexivity|]. rewrite app_length, IH. simpl. lia. Qed.

Lemma be_val_aux_app acc l b : be_val_aux acc (l ++ [b]) = be_val_aux acc l * 256 + b.
Proof. revert acc; induction l as [|x l IH]; intro acc; simpl; [reflexivity|]. apply IH. Qed.

Lemma be_val_be_bytes k v : be_val (be_bytes k v) = v mod 256 ^ N.of_nat k.
Proof.
  unfold be_val. revert v; induction k as [|k IH]; intro v.
  - simpl. rewrite N.mod_1_r. reflexivity.
  - cbn [be_bytes]. rewrite be_val_aux_app, IH.
    rewrite Nat2N.inj_succ, N.pow_succ_r'.
    assert (Hp : 256 ^ N.of_nat k <> 0) by (apply N.pow_nonzero; lia).
    rewrite N.mod_mul_r by lia.
    rewrite N.add_comm, N.mul_comm. reflexivity.
Qed.

Lemma usize_is_go v : v < 18446744073709551616 -> usize v = usize_go v.
Proof. intro H. unfold usize. apply N.ltb_lt in H. rewrite H. reflexivity. Qed.

Lemma usize_range v : 0 < v -> 256 ^ N.of_nat (usize v - 1) <= v < 256 ^ N.of_nat (usize v).
Proof.
  intro Hv. unfold usize. destruct (N.ltb_spec v 18446744073709551616) as [Hs|Hb].
  - unfold usize_go. destruct (N.eqb_spec v 0); [lia|].
    repeat match goal with
    | |- context [if ?a <? ?b then _ else _] => destruct (N.ltb_spec a b); [cbn; lia|]
    end.
    cbn. lia.
  - (* beyond 2^64: 2^(8q) <= 2^l <= v < 2^(l+1) <= 2^(8(q+1)) for l = log2 v = 8q + m *)
    destruct (N.log2_spec v Hv) as [Hlo Hhi]. revert Hlo Hhi. generalize (N.log2 v). intros l Hlo Hhi.
    pose proof (N.div_mod l 8 ltac:(lia)) as D. pose proof (N.mod_upper_bound l 8 ltac:(lia)) as M.
    revert D M. generalize (l / 8) (l mod 8). intros q m D M.
    replace (N.of_nat (N.to_nat (q + 1) - 1)) with q by lia. rewrite N2Nat.id.
    change 256 with (2 ^ 8). rewrite <- !N.pow_mul_r. split.
    + eapply N.le_trans; [|exact Hlo]. apply N.pow_le_mono_r; lia.
    + eapply N.lt_le_trans; [exact Hhi|]. apply N.pow_le_mono_r; lia.
Qed.

Lemma usize_bound v : v < 256 ^ N.of_nat (usize v).
Proof. destruct v as [|p]; [reflexivity|]. apply usize_range. reflexivity. Qed.

Lemma usize_pos v : 0 < v -> (0 < usize v)%nat.
Proof. intro Hv. pose proof (usize_bound v) as Hb. destruct (usize v); [cbn in Hb; lia|lia]. Qed.

Lemma usize_le8 v : v < 18446744073709551616 -> (usize v <= 8)%nat.
Proof.
  intro H. rewrite usize_is_go by exact H. unfold usize_go. destruct (v =? 0); [lia|].
  repeat match goal with
  | |- context [if ?a <? ?b then _ else _] => destruct (a <? b); [lia|]
  end. lia.
Qed.

Lemma marker_inj n1 s1 n2 s2 : marker n1 s1 = marker n2 s2 -> n1 = n2 /\ s1 = s2.
Proof.
  unfold marker.
  destruct (Nat.leb_spec s1 8) as [L1|L1], (Nat.leb_spec s2 8) as [L2|L2], n1, n2; intro Hm; split; try reflexivity; try lia.
Qed.

Lemma enc_varint_inj n m r1 r2 : enc_varint n ++ r1 = enc_varint m ++ r2 -> n = m /\ r1 = r2.
Proof.
  unfold enc_varint. cbn [app]. intro H. injection H as Hm Hrest.
  apply marker_inj in Hm as [Hneg Hs].
  apply app_inv_length in Hrest as [Hb Hr]; [|rewrite !be_bytes_length; exact Hs].
  split; [|exact Hr].
  apply (f_equal be_val) in Hb. rewrite !be_val_be_bytes in Hb.
  pose proof (usize_bound (Z.abs_N n)) as B1. pose proof (usize_bound (Z.abs_N m)) as B2.
  rewrite Hs in Hb, B1. rewrite !N.mod_small in Hb by assumption.
  destruct (Z.ltb_spec n 0), (Z.ltb_spec m 0); try discriminate; lia.
Qed.

Lemma enc_bs_inj a b r1 r2 : enc_bs a ++ r1 = enc_bs b ++ r2 -> a = b /\ r1 = r2.
Proof.
  unfold enc_bs. rewrite <- !app_assoc. intro H.
  apply enc_varint_inj in H as [Hlen H]. apply Nat2Z.inj in Hlen.
  exact (app_inv_length _ _ _ _ Hlen H).
Qed.

Lemma enc_bs_pair_inj a b c d :
  enc_bs a ++ enc_bs b = enc_bs c ++ enc_bs d -> a = c /\ b = d.
Proof.
  intros H.
  apply enc_bs_inj in H as [-> H].
  rewrite <- (app_nil_r (enc_bs b)), <- (app_nil_r (enc_bs d)) in H.
  apply enc_bs_inj in H as [-> _]; auto.
Qed.

Lemma wrap64_small z : (-9223372036854775808 <= z < 9223372036854775808)%Z -> wrap64 z = z.
Proof. intro H. unfold wrap64. rewrite Z.mod_small by lia. lia. Qed.

Lemma marker_decode neg s : (s <= 8)%nat ->
  N.eqb (marker neg s / 16) 15 = neg /\
  (if neg then N.land (marker neg s) 15 else marker neg s) = N.of_nat s.
Proof.
  intro H. unfold marker. rewrite (proj2 (Nat.leb_le s 8) H).
  assert (Hs : N.of_nat s < 16) by lia. destruct neg.
  - change 240 with (15 * 16). split.
    + rewrite N.div_add, N.div_small by lia. reflexivity.
    + rewrite (N.land_ones _ 4), N.mod_add by lia. apply N.mod_small. exact Hs.
  - rewrite N.div_small by exact Hs. split; reflexivity.
Qed.

Lemma dec_varint_raw neg a rest : a < 18446744073709551616 -> (neg = true -> a <> 0) ->
  dec_varint ((marker neg (usize a) :: be_bytes (usize a) a) ++ rest) =
  Some (let v := wrap64 (Z.of_N a) in if neg then wrap64 (- v) else v, rest)%Z.
Proof.
  intros Ha Hn. pose proof (usize_le8 a Ha) as H8.
  destruct (marker_decode neg (usize a) H8) as [Hneg Hsize].
  cbn [List.app dec_varint]. rewrite Hneg, Hsize.
  rewrite (proj2 (N.ltb_ge 8 (N.of_nat (usize a)))) by lia.
  destruct (N.eqb_spec (N.of_nat (usize a)) 0) as [E0|E0].
  - assert (a = 0) as -> by (pose proof (usize_pos a); lia).
    destruct neg; [exfalso; apply Hn; reflexivity|reflexivity].
  - rewrite Nat2N.id, app_length, be_bytes_length.
    rewrite (proj2 (Nat.ltb_ge _ _)) by lia.
    rewrite firstn_exact, skipn_exact by apply be_bytes_length.
    rewrite be_val_be_bytes, N.mod_small by apply usize_bound. reflexivity.
Qed.

Lemma dec_enc_varint z rest : (-9223372036854775808 <= z < 9223372036854775808)%Z ->
  dec_varint (enc_varint z ++ rest) = Some (z, rest).
Proof.
  intro Hz. unfold enc_varint. rewrite dec_varint_raw; [|lia|intros Hn; lia].
  f_equal. f_equal. cbn zeta.
  destruct (Z.ltb_spec z 0) as [Hneg|Hpos].
  - (* -2^63 is the one value whose absolute value wraps *)
    destruct (Z.eq_dec z (-9223372036854775808)) as [->|Hne]; [reflexivity|].
    rewrite (wrap64_small (Z.of_N (Z.abs_N z))) by lia. rewrite wrap64_small by lia. lia.
  - rewrite wrap64_small by lia. lia.
Qed.

Lemma dec_enc_uvarint a rest : a < 18446744073709551616 ->
  dec_varint (enc_uvarint a ++ rest) = Some (wrap64 (Z.of_N a), rest).
Proof. intro Ha. unfold enc_uvarint. rewrite dec_varint_raw; [reflexivity|exact Ha|discriminate]. Qed.

Lemma dec_varint_suffix bs z rest : dec_varint bs = Some (z, rest) -> exists c, bs = c ++ rest.
Proof.
  destruct bs as [|b0 r]; [discriminate|]. cbn [dec_varint].
  destruct (8 <? _); [discriminate|]. destruct (_ =? 0).
  - destruct (N.eqb (b0 / 16) 15); [discriminate|]. intro H. injection H as _ <-. exists [b0]. reflexivity.
  - destruct (Nat.ltb _ _); [discriminate|]. intro H. injection H as _ <-.
    match goal with |- context [skipn ?k r] => exists (b0 :: firstn k r); cbn [List.app]; rewrite firstn_skipn; reflexivity end.
Qed.
