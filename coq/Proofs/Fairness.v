(* Exact proportionality of the accumulate-and-subtract proposer rotation, on plain integer
   lists: powers [ps] (non-negative, total T > 0) and accumulators [acs].  One step adds each power
   to its accumulator, selects the first index holding the maximum, and subtracts T there.
   Starting from all-zero accumulators, in every window of T consecutive steps index i is
   selected exactly [nth i ps] times. *)
From Coq Require Import List ZArith Lia Bool.
Import ListNotations.
Open Scope Z_scope.

Fixpoint sumZ (l : list Z) : Z := match l with [] => 0 | x :: t => x + sumZ t end.

Fixpoint zadd (a b : list Z) : list Z :=
  match a, b with x :: a', y :: b' => (x + y) :: zadd a' b' | _, _ => [] end.

Fixpoint upd (l : list Z) (i : nat) (d : Z) : list Z :=
  match l, i with
  | [], _ => []
  | x :: t, O => (x + d) :: t
  | x :: t, S i' => x :: upd t i' d
  end.

Fixpoint amax_from (l : list Z) (i best : nat) (bestv : Z) : nat :=
  match l with
  | [] => best
  | x :: t => if bestv <? x then amax_from t (S i) i x else amax_from t (S i) best bestv
  end.
Definition amax (l : list Z) : nat := match l with [] => O | x :: t => amax_from t 1 0 x end.

Lemma nth_zadd a b i : length a = length b -> nth i (zadd a b) 0 = nth i a 0 + nth i b 0.
Proof.
  revert b i; induction a as [|x a IH]; intros [|y b] i H; simpl in *; try lia; [destruct i; reflexivity|].
  destruct i; [reflexivity|]. apply IH. lia.
Qed.
Lemma zadd_length a b : length a = length b -> length (zadd a b) = length a.
Proof. revert b; induction a as [|x a IH]; intros [|y b] H; simpl in *; try lia. rewrite IH; lia. Qed.
Lemma sumZ_zadd a b : length a = length b -> sumZ (zadd a b) = sumZ a + sumZ b.
Proof. revert b; induction a as [|x a IH]; intros [|y b] H; simpl in *; try lia. rewrite IH; lia. Qed.

Lemma upd_length l i d : length (upd l i d) = length l.
Proof. revert i; induction l as [|x t IH]; intros [|i]; simpl; auto. Qed.
Lemma nth_upd_eq l i d : (i < length l)%nat -> nth i (upd l i d) 0 = nth i l 0 + d.
Proof. revert i; induction l as [|x t IH]; intros [|i] H; simpl in *; try lia. apply IH. lia. Qed.
Lemma nth_upd_neq l i j d : i <> j -> nth j (upd l i d) 0 = nth j l 0.
Proof. revert i j; induction l as [|x t IH]; intros [|i] [|j] H; simpl; auto; try lia. Qed.
Lemma sumZ_upd l i d : (i < length l)%nat -> sumZ (upd l i d) = sumZ l + d.
Proof. revert i; induction l as [|x t IH]; intros [|i] H; simpl in *; try lia. rewrite IH; lia. Qed.

(* [f] reads the whole list the scan is part of: the candidate [best] and the remaining positions
   [i], [i+1], ... *)
Lemma amax_from_max (f : nat -> Z) l : forall i best,
  (forall k, (k < length l)%nat -> f (i + k)%nat = nth k l 0) ->
  let r := amax_from l i best (f best) in
  (r = best \/ (i <= r < i + length l)%nat) /\ f best <= f r /\
  forall k, (k < length l)%nat -> f (i + k)%nat <= f r.
Proof.
  induction l as [|x t IH]; intros i best Hf; cbn [amax_from length].
  - split; [left; reflexivity|]. split; [lia|]. intros k Hk. lia.
  - assert (Hx : f i = x) by (rewrite <- (Nat.add_0_r i); apply (Hf 0%nat); simpl; lia).
    assert (Hf' : forall k, (k < length t)%nat -> f (S i + k)%nat = nth k t 0).
    { intros k Hk. rewrite Nat.add_succ_comm. apply (Hf (S k)). simpl. lia. }
    rewrite <- Hx. destruct (Z.ltb_spec (f best) (f i)) as [Hlt|Hge].
    + destruct (IH (S i) i Hf') as (A & B & C). split; [lia|]. split; [lia|].
      intros [|k] Hk; [rewrite Nat.add_0_r; exact B|]. rewrite <- Nat.add_succ_comm. apply C. simpl in Hk. lia.
    + destruct (IH (S i) best Hf') as (A & B & C). split; [lia|]. split; [exact B|].
      intros [|k] Hk; [rewrite Nat.add_0_r; lia|]. rewrite <- Nat.add_succ_comm. apply C. simpl in Hk. lia.
Qed.

Lemma amax_spec l : l <> [] ->
  (amax l < length l)%nat /\ forall j, (j < length l)%nat -> nth j l 0 <= nth (amax l) l 0.
Proof.
  destruct l as [|x t]; [congruence|]. intros _. unfold amax.
  destruct (amax_from_max (fun j => nth j (x :: t) 0) t 1 0) as (A & B & C); [reflexivity|].
  simpl in A, B, C. split; [simpl; lia|]. intros [|j] Hj; [exact B|]. apply C. simpl in Hj. lia.
Qed.

Lemma sumZ_le : forall a b, length a = length b -> (forall i, nth i a 0 <= nth i b 0) -> sumZ a <= sumZ b.
Proof.
  induction a as [|x a IH]; intros [|y b] Hl Hle; simpl in *; try lia.
  specialize (IH b ltac:(lia) (fun i => Hle (S i))). specialize (Hle 0%nat). simpl in Hle. lia.
Qed.

Lemma sumZ_nonneg l : (forall i, 0 <= nth i l 0) -> 0 <= sumZ l.
Proof.
  induction l as [|x t IH]; intro Hn; simpl; [lia|].
  specialize (IH (fun i => Hn (S i))). specialize (Hn 0%nat). simpl in Hn. lia.
Qed.

Lemma nth_le_sumZ l : (forall i, 0 <= nth i l 0) -> forall i, nth i l 0 <= sumZ l.
Proof.
  induction l as [|x t IH]; intros Hn i; [destruct i; simpl; lia|].
  pose proof (sumZ_nonneg t (fun j => Hn (S j))). pose proof (Hn 0%nat) as H0. simpl in H0 |- *.
  destruct i as [|i]; [lia|]. specialize (IH (fun j => Hn (S j)) i). lia.
Qed.

Lemma sum_pos_max_pos l : 0 < sumZ l -> l <> [] /\ 0 < nth (amax l) l 0.
Proof.
  intro Hs. assert (Hne : l <> []) by (intro E; subst; simpl in Hs; lia). split; [exact Hne|].
  destruct (amax_spec l Hne) as [_ Hmax].
  (* some entry is positive, and the selected one is no smaller *)
  assert (Hex : exists j, (j < length l)%nat /\ 0 < nth j l 0).
  { clear Hmax Hne. induction l as [|x t IH]; simpl in Hs; [lia|].
    destruct (Z_lt_le_dec 0 x) as [Hx|Hx]; [exists 0%nat; simpl; split; [lia|exact Hx]|].
    destruct IH as (j & Hj & Hp); [lia|]. exists (S j). simpl. split; [lia|exact Hp]. }
  destruct Hex as (j & Hj & Hp). specialize (Hmax j Hj). lia.
Qed.

Lemma sumZ_linear k T : forall acs ps cs, length acs = length ps -> length cs = length ps ->
  (forall i, nth i acs 0 = k * nth i ps 0 - T * nth i cs 0) -> sumZ acs = k * sumZ ps - T * sumZ cs.
Proof.
  induction acs as [|a acs IH]; intros [|p ps] [|c cs] H1 H2 Hp; simpl in *; try lia.
  rewrite (IH ps cs); try lia.
  - specialize (Hp 0%nat). simpl in Hp. lia.
  - intro i. exact (Hp (S i)).
Qed.

Lemma pointwise_le_sum_eq : forall cs ps, length cs = length ps ->
  (forall i, nth i cs 0 <= nth i ps 0) -> sumZ cs = sumZ ps -> forall i, nth i cs 0 = nth i ps 0.
Proof.
  induction cs as [|c cs IH]; intros [|p ps] Hl Hle Hs i; simpl in Hl; try lia.
  pose proof (sumZ_le cs ps ltac:(lia) (fun j => Hle (S j))). pose proof (Hle 0%nat) as H0. simpl in H0, Hs.
  destruct i as [|i]; simpl; [lia|]. apply IH; [lia|exact (fun j => Hle (S j))|lia].
Qed.

Section Rotation.
Variable ps : list Z.
Hypothesis ps_nonneg : forall i, 0 <= nth i ps 0.
Let T := sumZ ps.
Hypothesis T_pos : 0 < T.

Definition pstep (acs : list Z) : nat * list Z :=
  let l1 := zadd acs ps in (amax l1, upd l1 (amax l1) (- T)).

Fixpoint prun (acs : list Z) (n : nat) : list nat * list Z :=
  match n with
  | O => ([], acs)
  | S n' => let '(i, acs1) := pstep acs in let '(tr, acs2) := prun acs1 n' in (i :: tr, acs2)
  end.

Lemma prun_app acs n m :
  prun acs (n + m) = (fst (prun acs n) ++ fst (prun (snd (prun acs n)) m), snd (prun (snd (prun acs n)) m)).
Proof.
  revert acs; induction n as [|n IH]; intro acs; cbn [prun Nat.add].
  - cbn [fst snd app]. destruct (prun acs m); reflexivity.
  - destruct (pstep acs) as [i a1]. rewrite IH. destruct (prun a1 n) as [t1 a2]. reflexivity.
Qed.

Lemma prun_S acs n :
  prun acs (S n) = (fst (pstep acs) :: fst (prun (snd (pstep acs)) n), snd (prun (snd (pstep acs)) n)).
Proof. cbn [prun]. destruct (pstep acs) as [i a1]. cbn [fst snd]. destruct (prun a1 n); reflexivity. Qed.

Lemma prun_snoc_snd acs m : snd (prun acs (S m)) = snd (pstep (snd (prun acs m))).
Proof. rewrite <- Nat.add_1_r, prun_app. cbn [snd]. rewrite prun_S. reflexivity. Qed.

Lemma prun_fst_length n : forall acs, length (fst (prun acs n)) = n.
Proof.
  induction n as [|n IH]; intro acs; [reflexivity|]. rewrite prun_S. cbn [fst length]. rewrite IH. reflexivity.
Qed.

Definition cnt (tr : list nat) (i : nat) : Z := Z.of_nat (count_occ Nat.eq_dec tr i).

Definition PInv (k : Z) (acs : list Z) (cs : list Z) : Prop :=
  length acs = length ps /\ length cs = length ps /\
  (forall i, nth i acs 0 = k * nth i ps 0 - T * nth i cs 0) /\
  (forall i, 0 <= nth i cs 0 <= nth i ps 0) /\ sumZ cs = k.

Lemma pstep_inv k acs cs : PInv k acs cs -> 0 <= k < T ->
  let '(i, acs') := pstep acs in
  (i < length ps)%nat /\ PInv (k + 1) acs' (upd cs i 1).
Proof.
  intros (L1 & L2 & Hrel & Hb & Hs) Hk. unfold pstep.
  set (l1 := zadd acs ps). set (i := amax l1).
  assert (Hl1 : length l1 = length ps) by (unfold l1; rewrite zadd_length; lia).
  assert (Hn1 : forall j, nth j l1 0 = (k + 1) * nth j ps 0 - T * nth j cs 0).
  { intro j. unfold l1. rewrite nth_zadd by lia. rewrite Hrel. lia. }
  assert (Hsum1 : sumZ l1 = T).
  { unfold l1. rewrite sumZ_zadd by lia. rewrite (sumZ_linear k T acs ps cs) by auto. fold T. lia. }
  destruct (sum_pos_max_pos l1 ltac:(lia)) as [Hne Hpos]. fold i in Hpos.
  destruct (amax_spec l1 Hne) as [Hi _]. fold i in Hi.
  split; [lia|].
  (* the selected entry (k+1) * ps[i] - T * cs[i] is positive and k + 1 <= T: index i has been
     selected fewer than ps[i] times *)
  assert (Hci : nth i cs 0 < nth i ps 0).
  { rewrite Hn1 in Hpos. destruct (Z_lt_le_dec (nth i cs 0) (nth i ps 0)) as [Hlt|Hge]; [exact Hlt|exfalso].
    assert (T * nth i cs 0 >= T * nth i ps 0) by (apply Z.le_ge; apply Z.mul_le_mono_nonneg_l; lia).
    assert ((k + 1) * nth i ps 0 <= T * nth i ps 0) by (apply Z.mul_le_mono_nonneg_r; [apply ps_nonneg|lia]).
    lia. }
  unfold PInv. rewrite !upd_length, sumZ_upd by lia.
  split; [lia|]. split; [lia|]. split; [|split; [|lia]]; intro j; destruct (Nat.eq_dec i j) as [<-|Hne'].
  - rewrite !nth_upd_eq by lia. rewrite Hn1. lia.
  - rewrite !nth_upd_neq by assumption. apply Hn1.
  - rewrite nth_upd_eq by lia. specialize (Hb i). lia.
  - rewrite nth_upd_neq by assumption. apply Hb.
Qed.

Lemma cnt_cons_eq i tr : cnt (i :: tr) i = cnt tr i + 1.
Proof. unfold cnt. simpl. destruct (Nat.eq_dec i i); [lia|congruence]. Qed.
Lemma cnt_cons_neq i j tr : i <> j -> cnt (i :: tr) j = cnt tr j.
Proof. unfold cnt. simpl. intro H. destruct (Nat.eq_dec i j); [congruence|reflexivity]. Qed.
Lemma cnt_app t1 t2 i : cnt (t1 ++ t2) i = cnt t1 i + cnt t2 i.
Proof. unfold cnt. rewrite count_occ_app. lia. Qed.

Lemma prun_inv n : forall k acs cs, PInv k acs cs -> 0 <= k -> k + Z.of_nat n <= T ->
  let '(tr, acs') := prun acs n in
  exists cs', PInv (k + Z.of_nat n) acs' cs' /\ (forall i, nth i cs' 0 = nth i cs 0 + cnt tr i) /\
              Forall (fun i => (i < length ps)%nat) tr.
Proof.
  induction n as [|n IH]; intros k acs cs HI Hk Hn.
  - cbn [prun]. exists cs. rewrite Z.add_0_r. split; [exact HI|]. split; [intro i; unfold cnt; simpl; lia|constructor].
  - cbn [prun]. pose proof (pstep_inv k acs cs HI ltac:(lia)) as Hst. destruct (pstep acs) as [i acs1].
    destruct Hst as [Hi HI1].
    specialize (IH (k + 1) acs1 (upd cs i 1) HI1 ltac:(lia) ltac:(lia)).
    destruct (prun acs1 n) as [tr acs2]. destruct IH as (cs' & HI2 & Hc & Hf).
    exists cs'. split; [replace (k + Z.of_nat (S n)) with (k + 1 + Z.of_nat n) by lia; exact HI2|].
    split; [|constructor; assumption].
    intro j. rewrite Hc. destruct HI as (_ & L2 & _). destruct (Nat.eq_dec i j) as [<-|Hne].
    + rewrite nth_upd_eq by lia. rewrite cnt_cons_eq. lia.
    + rewrite nth_upd_neq by assumption. rewrite cnt_cons_neq by assumption. lia.
Qed.

Definition zeros : list Z := repeat 0 (length ps).

Lemma nth_zeros i : nth i zeros 0 = 0.
Proof. apply nth_repeat. Qed.

Lemma PInv_zero : PInv 0 zeros zeros.
Proof.
  unfold PInv. split; [apply repeat_length|]. split; [apply repeat_length|].
  split; [intro i; rewrite nth_zeros; lia|]. split; [intro i; rewrite nth_zeros; split; [lia|apply ps_nonneg]|].
  unfold zeros. induction (length ps); simpl; lia.
Qed.

Theorem full_period :
  let '(tr, acs) := prun zeros (Z.to_nat T) in
  (forall i, cnt tr i = nth i ps 0) /\ acs = zeros /\ length tr = Z.to_nat T.
Proof.
  pose proof (prun_inv (Z.to_nat T) 0 zeros zeros PInv_zero ltac:(lia) ltac:(lia)) as H.
  pose proof (prun_fst_length (Z.to_nat T) zeros) as Hlen.
  destruct (prun zeros (Z.to_nat T)) as [tr acs]. destruct H as (cs' & (L1 & L2 & Hrel & Hb & Hs) & Hc & _).
  rewrite Z2Nat.id in * by lia. cbn [fst] in Hlen.
  (* T selections with at most ps[i] of index i: exactly ps[i] of each *)
  assert (Heq : forall i, nth i cs' 0 = nth i ps 0).
  { apply pointwise_le_sum_eq; [lia|intro i; apply Hb|]. fold T. lia. }
  split; [intro i; rewrite <- Heq, Hc, nth_zeros; lia|]. split; [|exact Hlen].
  apply (nth_ext _ _ 0 0); [unfold zeros; rewrite repeat_length; lia|].
  intros i _. rewrite Hrel, Heq, nth_zeros. lia.
Qed.

Theorem every_window s :
  let tr := fst (prun zeros (s + Z.to_nat T)) in
  forall i, cnt (skipn s tr) i = nth i ps 0.
Proof.
  intros tr i. subst tr.
  pose proof full_period as Hfp. destruct (prun zeros (Z.to_nat T)) as [trT aT] eqn:ET. destruct Hfp as (HcT & -> & _).
  (* the run of s + T steps is s steps then a window, and also a full period then the same s steps *)
  pose proof (prun_app zeros (Z.to_nat T) s) as H2. rewrite ET, Nat.add_comm, prun_app in H2. cbn [fst snd] in H2.
  injection H2 as H2 _. apply (f_equal (fun l => cnt l i)) in H2. rewrite !cnt_app, HcT in H2.
  rewrite prun_app. cbn [fst].
  rewrite skipn_app, prun_fst_length, Nat.sub_diag, <- (prun_fst_length s zeros) at 1. rewrite skipn_all. cbn [skipn app]. lia.
Qed.

End Rotation.

Section Bounds.
Variable ps : list Z.
Hypothesis ps_nonneg : forall i, 0 <= nth i ps 0.
Let T := sumZ ps.
Hypothesis T_pos : 0 < T.

Lemma prun_length acs n : length acs = length ps -> length (snd (prun ps acs n)) = length ps.
Proof.
  revert acs; induction n as [|n IH]; intros acs Hl; cbn [prun]; [exact Hl|].
  unfold pstep. cbn zeta.
  specialize (IH (upd (zadd acs ps) (amax (zadd acs ps)) (- sumZ ps))).
  destruct (prun ps (upd (zadd acs ps) (amax (zadd acs ps)) (- sumZ ps)) n) as [tr a2]. cbn [snd] in *.
  apply IH. rewrite upd_length, zadd_length; auto.
Qed.

Lemma prun_periods q : snd (prun ps (zeros ps) (q * Z.to_nat T)) = zeros ps.
Proof.
  induction q as [|q IH]; [reflexivity|].
  cbn [Nat.mul]. rewrite Nat.add_comm, prun_app. cbn [snd]. rewrite IH.
  pose proof (full_period ps ps_nonneg T_pos) as Hfp. fold T in Hfp.
  destruct (prun ps (zeros ps) (Z.to_nat T)) as [t2 a2]. destruct Hfp as (_ & -> & _). reflexivity.
Qed.

(* after n = q * T + r steps the accumulators are those after r < T steps: r * ps[i] - T * c with
   0 <= c <= ps[i] <= T *)
Theorem prun_bounded n i : - (T * T) <= nth i (snd (prun ps (zeros ps) n)) 0 <= T * T.
Proof.
  set (t := Z.to_nat T). assert (Ht : (0 < t)%nat) by (unfold t; lia).
  rewrite (Nat.div_mod n t) by lia. rewrite (Nat.mul_comm t), prun_app. cbn [snd].
  pose proof (prun_periods (n / t)) as Hp. fold t in Hp. rewrite Hp. clear Hp.
  pose proof (Nat.mod_upper_bound n t ltac:(lia)) as Hr.
  pose proof (prun_inv ps ps_nonneg T_pos (n mod t) 0 (zeros ps) (zeros ps) (PInv_zero ps ps_nonneg) ltac:(lia)) as Hinv.
  fold T in Hinv. assert (Hrz : 0 + Z.of_nat (n mod t) <= T) by (unfold t in *; lia). specialize (Hinv Hrz).
  destruct (prun ps (zeros ps) (n mod t)) as [t2 a2]. cbn [snd].
  destruct Hinv as (cs & (_ & _ & Hrel & Hb & _) & _ & _).
  rewrite Hrel. specialize (Hb i). pose proof (nth_le_sumZ ps ps_nonneg i) as Hle. fold T in Hle. pose proof (ps_nonneg i).
  assert (0 <= (0 + Z.of_nat (n mod t)) * nth i ps 0 <= T * T) by (split; [apply Z.mul_nonneg_nonneg; lia|apply Z.mul_le_mono_nonneg; lia]).
  assert (0 <= T * nth i cs 0 <= T * T) by (split; [apply Z.mul_nonneg_nonneg; lia|apply Z.mul_le_mono_nonneg_l; lia]).
  lia.
Qed.

End Bounds.
