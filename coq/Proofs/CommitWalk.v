(* Where commits come from: an OCommit output of one handled input is for the node's height, for a
   non-nil block hash, and rests on valid precommits for one block id with that hash, in one
   round, from more than two thirds of the power - all of them votes delivered to the node
   (configuration without skip-commit). *)
From Coq Require Import List NArith Bool.
From AnnVerif Require Import Base.Res Model.VoteSet Model.Node
 Proofs.PowerSum Proofs.VoteSetProofs Proofs.NodeProofs Proofs.NodeSteps Proofs.Backed Proofs.NodeBacked Proofs.Emit.
Import ListNotations.
Open Scope Z_scope.

Lemma act_no_commit reached dv n o n' hc hash : act reached dv n o n' -> ~ In (OCommit hc hash) o.
Proof.
  assert (Hs : forall t b m m' o', sign_add_vote t b m = Ok (m', o') -> ~ In (OCommit hc hash) o').
  { intros t b m m' o' E Hin. pose proof (sign_add_vote_out _ _ _ _ _ _ E Hin). discriminate. }
  destruct 1 as [n o n' (_ & _ & Q)|n n' o E|n n' o E|h r n n' o E _|n R|n k hv E|n v peer hv added code _ E];
    try (intros []).
  - intro Hin. exact (Q _ Hin).
  - apply do_prevote_inv in E as (b & E & _). exact (Hs _ _ _ _ _ E).
  - intro Hin. exact (decide_proposal_quiet _ _ _ E _ Hin).
  - apply enter_precommit_inv in E as [[_ ->]|(_ & _ & m & vb & n2 & _ & Es & _)]; [intros []|eapply Hs; exact Es].
Qed.
Lemma acts_no_commit reached dv n o n' hc hash : acts reached dv n o n' -> ~ In (OCommit hc hash) o.
Proof.
  induction 1 as [|n o1 m o2 n' H1 _ IH]; [intros []|]. intro Hin. apply in_app_or in Hin as [Hin|Hin]; [|exact (IH Hin)].
  exact (act_no_commit _ _ _ _ _ _ _ H1 Hin).
Qed.

Section CommitWalk.
Variable VS : list validator.
Hypothesis Hbounded : bounded VS.
Variable h0 : Z.

Theorem CW_handle c i : c_skip_commit c = false ->
  forall off n n' o hc hash, node_ok VS h0 off n -> height n = h0 -> handle c i n = Ok (n', o) -> In (OCommit hc hash) o ->
    hc = h0 /\ hash <> [] /\ exists r b, b_hash b = hash /\ Qr VS (voted_for VS h0 r 2%N (delivered_of i ++ off) b).
Proof.
  intros Hs off n n' o hc hash Hok Hh E Hin. set (off' := delivered_of i ++ off).
  assert (Ht : trace False (delivered_of i) c n o n').
  { apply handle_trace_any, E. }
  destruct Ht as [? ? ? Ha|? o1 m h m' o2 o3 ? Ha Hf _ _ Hq]; [destruct (acts_no_commit _ _ _ _ _ _ _ Ha Hin)|].
  destruct (Hq Hs) as [_ Q3].
  apply in_app_or in Hin as [Hin|Hin]; [destruct (acts_no_commit _ _ _ _ _ _ _ Ha Hin)|].
  apply in_app_or in Hin as [Hin|Hin]; [|destruct (Q3 _ Hin)].
  (* the commit of finalize_commit, in a state reached by actions of this height *)
  assert (Hm : node_ok VS h0 off' m /\ height m = h0).
  { split; [|rewrite (proj1 (acts_keeps _ _ _ _ _ Ha)); exact Hh].
    apply (acts_rel False (delivered_of i) (fun a b => node_ok VS h0 off' a -> node_ok VS h0 off' b)) with (n := n) (o := o1); auto.
    - intros a oa b Hab. eapply (act_ok VS Hbounded); [|exact Hab]. apply incl_appl, incl_refl.
    - eapply node_ok_mono; [|exact Hok]. apply incl_appr, incl_refl. }
  destruct Hm as [[_ Hok'] Hhm]. destruct (Hok' Hhm) as [A B].
  destruct (commit_rule _ _ _ _ _ _ _ Hf Hin) as (Hc & b & pb & Hca & Hb & _ & Hpb & _).
  split; [congruence|]. split.
  - apply finalize_commit_inv in Hf as [[_ ->]|(b' & _ & _ & _ & _ & _ & Hca' & _ & _ & _ & _ & _ & _ & _ & Hne)]; [destruct Hin|].
    unfold commit_at in Hca, Hca'. rewrite <- Hb. congruence.
  - exists (commit_round m), b. split; [exact Hb|]. unfold Qr. rewrite <- B.
    apply (commit_backed VS Hbounded off' (votes m) (commit_round m) b A Hca).
Qed.
End CommitWalk.
