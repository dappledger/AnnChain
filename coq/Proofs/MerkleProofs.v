(* Proofs about Model.Merkle (go-merkle simple_tree.go), for C17: every generated inclusion proof
   verifies, and a proof that verifies against the root of a list, with the length of that list as
   the total, is the generated proof of the item at its index.  (For another total this fails:
   Props/C17.v has the witnesses.) *)
From Coq Require Import List NArith ZArith Lia Bool.
From AnnVerif Require Import Base.Bytes Model.Merkle Proofs.BytesProofs.
Import ListNotations.

Lemma half_bounds n : (2 <= n)%nat -> (0 < half n < n)%nat.
Proof.
  intro H. unfold half.
  assert (H2 := Nat.div_mod (n + 1) 2 ltac:(lia)).
  assert (H3 := Nat.mod_upper_bound (n + 1) 2 ltac:(lia)).
  lia.
Qed.

(* the bound is 2^62; all that is needed is that [n + 1] does not leave int64 *)
Lemma half_Z n : (Z.of_nat n < 4611686018427387904)%Z ->
  Z.quot (wrap64 (Z.of_nat n + 1)) 2 = Z.of_nat (half n).
Proof.
  intro H. unfold wrap64, half.
  rewrite Z.mod_small by lia.
  replace (Z.of_nat n + 1 + 9223372036854775808 - 9223372036854775808)%Z with (Z.of_nat (n + 1)) by lia.
  rewrite Z.quot_div_nonneg by lia.
  rewrite Nat2Z.inj_div. reflexivity.
Qed.

Lemma In_firstn_aux {A} (x : A) n l : In x (firstn n l) -> In x l.
Proof. intro H. rewrite <- (firstn_skipn n l). apply in_or_app. left. exact H. Qed.
Lemma In_skipn_aux {A} (x : A) n l : In x (skipn n l) -> In x l.
Proof. intro H. rewrite <- (firstn_skipn n l). apply in_or_app. right. exact H. Qed.

Lemma nth_firstn {A} (l : list A) n i d : (i < n)%nat -> nth i (firstn n l) d = nth i l d.
Proof.
  revert n i; induction l as [|x l IH]; intros n i H.
  - rewrite firstn_nil. reflexivity.
  - destruct n as [|n]; [lia|]. destruct i as [|i]; simpl; [reflexivity|]. apply IH. lia.
Qed.

Lemma nth_skipn {A} (l : list A) n i d : nth i (skipn n l) d = nth (n + i) l d.
Proof.
  revert n; induction l as [|x l IH]; intros n.
  - rewrite skipn_nil. destruct i, n; reflexivity.
  - destruct n as [|n]; simpl; [reflexivity|]. apply IH.
Qed.

Lemma halves_length {A} (hs : list A) n : length hs = n -> (2 <= n)%nat ->
  length (firstn (half n) hs) = half n /\ length (skipn (half n) hs) = (n - half n)%nat.
Proof.
  intros <- H. pose proof (half_bounds _ H). rewrite firstn_length, skipn_length. lia.
Qed.

Section MerkleProofs.
Variable hash : bytes -> bytes.
Hypothesis hash_inj : forall x y, hash x = hash y -> x = y.

Notation root_f := (root_f hash).
Notation aunts_f := (aunts_f hash).
Notation compute_rev := (compute_rev hash).
Notation hash2 := (hash2 hash).

Lemma hash2_inj a b c d : hash2 a b = hash2 c d -> a = c /\ b = d.
Proof.
  intros H. apply hash_inj in H. apply enc_bs_pair_inj in H; auto.
Qed.

Lemma root_f_node f hs n : length hs = n -> (2 <= n)%nat ->
  root_f (S f) hs = hash2 (root_f f (firstn (half n) hs)) (root_f f (skipn (half n) hs)).
Proof. intros <-. destruct hs as [|h1 [|h2 t]]; simpl; intro H; try lia. reflexivity. Qed.

Lemma aunts_f_node f hs n i : length hs = n -> (2 <= n)%nat ->
  aunts_f (S f) hs i =
  if Nat.ltb i (half n) then aunts_f f (firstn (half n) hs) i ++ [root_f f (skipn (half n) hs)]
  else aunts_f f (skipn (half n) hs) (i - half n) ++ [root_f f (firstn (half n) hs)].
Proof. intros <-. destruct hs as [|h1 [|h2 t]]; simpl; intro H; try lia. reflexivity. Qed.

Lemma compute_rev_node raunts i n leaf :
  (2 <= n)%nat -> (Z.of_nat n < 4611686018427387904)%Z -> (i < n)%nat ->
  compute_rev raunts (Z.of_nat i) (Z.of_nat n) leaf =
  match raunts with
  | [] => None
  | a :: rest =>
    if Nat.ltb i (half n)
    then option_map (fun l => hash2 l a) (compute_rev rest (Z.of_nat i) (Z.of_nat (half n)) leaf)
    else option_map (hash2 a) (compute_rev rest (Z.of_nat (i - half n)) (Z.of_nat (n - half n)) leaf)
  end.
Proof.
  intros Hn Hb Hi. pose proof (half_bounds n Hn).
  destruct raunts as [|a rest]; cbn [Merkle.compute_rev].
  all: replace ((Z.of_nat i <? 0)%Z || (Z.of_nat n <=? Z.of_nat i)%Z) with false
    by (symmetry; apply orb_false_iff; split; [apply Z.ltb_ge|apply Z.leb_gt]; lia).
  all: replace (Z.of_nat n =? 1)%Z with false by (symmetry; apply Z.eqb_neq; lia).
  - reflexivity.
  - rewrite half_Z by assumption.
    destruct (Nat.ltb_spec i (half n)) as [Hlt|Hge].
    + replace (Z.of_nat i <? Z.of_nat (half n))%Z with true by (symmetry; apply Z.ltb_lt; lia).
      reflexivity.
    + replace (Z.of_nat i <? Z.of_nat (half n))%Z with false by (symmetry; apply Z.ltb_ge; lia).
      rewrite <- !Nat2Z.inj_sub by lia. reflexivity.
Qed.

Lemma compute_rev_range raunts i total leaf r :
  compute_rev raunts i total leaf = Some r -> (0 <= i < total)%Z.
Proof.
  destruct raunts; cbn [Merkle.compute_rev].
  all: destruct (Z.ltb_spec i 0); [discriminate|].
  all: destruct (Z.leb_spec total i); [discriminate|]; lia.
Qed.

Lemma complete_f : forall f hs n i,
  length hs = n -> (n <= f)%nat -> (i < n)%nat -> (Z.of_nat n < 4611686018427387904)%Z ->
  compute_rev (rev (aunts_f f hs i)) (Z.of_nat i) (Z.of_nat n) (nth i hs []) = Some (root_f f hs).
Proof using Type.
  induction f as [|f IH]; intros hs n i Hl Hf Hi Hb; [lia|].
  destruct (Nat.lt_ge_cases n 2) as [Hsmall|Hn].
  - destruct hs as [|h [|]]; simpl in Hl; try lia.
    replace i with 0%nat by lia. subst n. reflexivity.
  - destruct (half_bounds n Hn), (halves_length hs n Hl Hn) as [Hleft Hright].
    rewrite (aunts_f_node f hs n), (root_f_node f hs n), compute_rev_node by assumption.
    destruct (Nat.ltb_spec i (half n)) as [Hlt|Hge]; rewrite rev_unit.
    + rewrite <- (nth_firstn hs (half n)) by assumption.
      rewrite IH by (assumption || lia). reflexivity.
    + replace (nth i hs []) with (nth (i - half n) (skipn (half n) hs) [])
        by (rewrite nth_skipn; f_equal; lia).
      rewrite IH by (assumption || lia). reflexivity.
Qed.

Lemma sound_f : forall f hs n raunts i leaf,
  length hs = n -> (n <= f)%nat -> (i < n)%nat -> (Z.of_nat n < 4611686018427387904)%Z ->
  compute_rev raunts (Z.of_nat i) (Z.of_nat n) leaf = Some (root_f f hs) ->
  leaf = nth i hs [] /\ rev raunts = aunts_f f hs i.
Proof.
  induction f as [|f IH]; intros hs n raunts i leaf Hl Hf Hi Hb; [lia|].
  destruct (Nat.lt_ge_cases n 2) as [Hsmall|Hn].
  - destruct hs as [|h [|]]; simpl in Hl; try lia.
    replace i with 0%nat by lia. subst n.
    destruct raunts; [|discriminate]. intros [= ->]. split; reflexivity.
  - destruct (half_bounds n Hn), (halves_length hs n Hl Hn) as [Hleft Hright].
    rewrite (aunts_f_node f hs n), (root_f_node f hs n), compute_rev_node by assumption.
    destruct raunts as [|a rest]; [discriminate|]. cbn [rev].
    destruct (Nat.ltb_spec i (half n)) as [Hlt|Hge].
    + destruct (compute_rev rest _ _ leaf) as [l|] eqn:Hrec; [|discriminate].
      intros [= E]. apply hash2_inj in E as [-> <-].
      apply IH in Hrec as [-> ->]; try (assumption || lia).
      split; [apply nth_firstn; assumption|reflexivity].
    + destruct (compute_rev rest _ _ leaf) as [r|] eqn:Hrec; [|discriminate].
      intros [= E]. apply hash2_inj in E as [<- ->].
      apply IH in Hrec as [-> ->]; try (assumption || lia).
      split; [rewrite nth_skipn; f_equal; lia|reflexivity].
Qed.

Theorem verify_complete hs i :
  (i < length hs)%nat -> (Z.of_nat (length hs) < 4611686018427387904)%Z ->
  verify hash (Z.of_nat i) (Z.of_nat (length hs)) (nth i hs []) (simple_root hash hs) (aunts_of hash hs i) = true.
Proof using Type.
  intros Hi Hn. unfold verify, compute_from_aunts, aunts_of, simple_root.
  rewrite complete_f by (auto; lia). apply bytes_eqb_refl.
Qed.

Theorem verify_sound hs i leaf aunts :
  (Z.of_nat (length hs) < 4611686018427387904)%Z ->
  verify hash i (Z.of_nat (length hs)) leaf (simple_root hash hs) aunts = true ->
  (0 <= i < Z.of_nat (length hs))%Z /\ leaf = nth (Z.to_nat i) hs [] /\ aunts = aunts_of hash hs (Z.to_nat i).
Proof.
  intros Hn. unfold verify, compute_from_aunts.
  destruct (compute_rev (rev aunts) i (Z.of_nat (length hs)) leaf) as [r|] eqn:Hc; [|discriminate].
  intro Hb. apply bytes_eqb_eq in Hb. subst r.
  pose proof (compute_rev_range _ _ _ _ _ Hc) as Hi. split; [exact Hi|].
  rewrite <- (Z2Nat.id i) in Hc by lia.
  apply sound_f in Hc; try lia. rewrite rev_involutive in Hc. exact Hc.
Qed.

End MerkleProofs.
