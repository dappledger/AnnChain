(* Proofs about Model.ValSet: the validator list stays sorted by address and duplicate-free under
   Add/Update/Remove/IncrementAccum; batched increments equal single increments; exact proportional
   proposer selection from a fresh set in every window (through Proofs.Fairness). *)
From Coq Require Import List NArith ZArith Lia Bool Sorted.
From AnnVerif Require Import Base.Res Base.Bytes Model.ValSet Proofs.BytesProofs Proofs.PowerSum
 Proofs.Fairness.
Import ListNotations.
Open Scope Z_scope.

Lemma bytes_cmp_eq a b : bytes_cmp a b = Eq <-> a = b.
Proof.
  revert b; induction a as [|x a IH]; intros [|y b]; simpl; split; intro H; try congruence; auto.
  - destruct (N.compare x y) eqn:E; try discriminate. apply N.compare_eq in E. apply IH in H. congruence.
  - inversion H; subst. rewrite N.compare_refl. apply IH. reflexivity.
Qed.

Lemma bytes_cmp_antisym a b : bytes_cmp a b = CompOpp (bytes_cmp b a).
Proof.
  revert b; induction a as [|x a IH]; intros [|y b]; simpl; auto.
  rewrite (N.compare_antisym y x). destruct (N.compare y x); simpl; auto.
Qed.

Lemma bytes_cmp_lt_trans a b c : bytes_cmp a b = Lt -> bytes_cmp b c = Lt -> bytes_cmp a c = Lt.
Proof.
  revert b c; induction a as [|x a IH]; intros [|y b] [|z c]; simpl; try congruence; auto.
  destruct (N.compare x y) eqn:E1; destruct (N.compare y z) eqn:E2; try discriminate; intros H1 H2.
  - apply N.compare_eq in E1, E2. subst. rewrite N.compare_refl. eapply IH; eauto.
  - apply N.compare_eq in E1. subst. rewrite E2. reflexivity.
  - apply N.compare_eq in E2. subst. rewrite E1. reflexivity.
  - rewrite N.compare_lt_iff in *. assert (x < z)%N by lia. apply N.compare_lt_iff in H. rewrite H. reflexivity.
Qed.

Definition blt (a b : bytes) : Prop := bytes_cmp a b = Lt.
Definition sortedA (la : list bytes) : Prop := StronglySorted blt la.
(* sorted by address, strictly: hence duplicate-free *)
Definition sorted (l : list val16) : Prop := sortedA (map va_addr l).

Lemma bytes_leb_false a b : bytes_leb a b = false -> bytes_cmp b a = Lt.
Proof. unfold bytes_leb. rewrite (bytes_cmp_antisym b a). destruct (bytes_cmp a b); simpl; congruence. Qed.
Lemma bytes_leb_true a b : bytes_leb a b = true -> a = b \/ bytes_cmp a b = Lt.
Proof. unfold bytes_leb. destruct (bytes_cmp a b) eqn:E; try discriminate; [left; apply bytes_cmp_eq; exact E|right; reflexivity]. Qed.
Lemma blt_irrefl a : ~ blt a a.
Proof. unfold blt. assert (bytes_cmp a a = Eq) by (apply bytes_cmp_eq; reflexivity). congruence. Qed.

Lemma sortedA_nodup la : sortedA la -> NoDup la.
Proof.
  induction 1 as [|a l Hs IH Hall]; constructor; auto.
  intro Hin. eapply Forall_forall in Hall; [|exact Hin]. exact (blt_irrefl a Hall).
Qed.
Lemma sorted_nodup l : sorted l -> NoDup (map va_addr l).
Proof. apply sortedA_nodup. Qed.

Lemma blt_Forall_trans a b la : blt a b -> Forall (blt b) la -> Forall (blt a) la.
Proof. intro Hab. apply Forall_impl. intros c Hc. exact (bytes_cmp_lt_trans _ _ _ Hab Hc). Qed.

Lemma sorted_cons v l : sorted l -> Forall (fun w => blt (va_addr v) (va_addr w)) l -> sorted (v :: l).
Proof. intros Hs Hall. constructor; [exact Hs|]. apply Forall_map. exact Hall. Qed.

Lemma sorted_inv v l : sorted (v :: l) -> sorted l /\ Forall (fun w => blt (va_addr v) (va_addr w)) l.
Proof. intro Hs. inversion Hs as [|? ? Hst Hall]; subst. split; [exact Hst|]. apply Forall_map. exact Hall. Qed.

(* sort.Search and the operation at the index found, as one recursion over the list *)
Lemma search_shift l a k : search l a k = (k + search l a 0)%nat.
Proof.
  revert k; induction l as [|v t IH]; intro k; simpl; [lia|].
  destruct (bytes_leb a (va_addr v)); [lia|]. rewrite (IH (S k)), (IH 1%nat). lia.
Qed.

Lemma search_cons v t a :
  search (v :: t) a 0 = if bytes_leb a (va_addr v) then 0%nat else S (search t a 0).
Proof. simpl. destruct (bytes_leb a (va_addr v)); [reflexivity|]. rewrite search_shift. reflexivity. Qed.

Fixpoint add_rec (l : list val16) (x : val16) : list val16 * bool :=
  match l with
  | [] => ([x], true)
  | v :: t =>
    if bytes_leb (va_addr x) (va_addr v) then
      if bytes_eqb (va_addr v) (va_addr x) then (l, false) else (x :: l, true)
    else let '(t', b) := add_rec t x in (v :: t', b)
  end.

Lemma add_rec_eq l x :
  match nth_error l (search l (va_addr x) 0) with
  | Some v => if bytes_eqb (va_addr v) (va_addr x) then (l, false) else (insert_at l (search l (va_addr x) 0) x, true)
  | None => (l ++ [x], true)
  end = add_rec l x.
Proof.
  induction l as [|v t IH]; [reflexivity|]. rewrite search_cons. cbn [add_rec].
  destruct (bytes_leb (va_addr x) (va_addr v)); cbn [nth_error insert_at].
  - destruct (bytes_eqb (va_addr v) (va_addr x)); reflexivity.
  - rewrite <- IH. destruct (nth_error t (search t (va_addr x) 0)) as [w|]; [destruct (bytes_eqb (va_addr w) (va_addr x))|]; reflexivity.
Qed.

Lemma add_spec vs x : vl (fst (add vs x)) = fst (add_rec (vl vs) x) /\ snd (add vs x) = snd (add_rec (vl vs) x).
Proof.
  rewrite <- add_rec_eq. unfold add.
  destruct (nth_error (vl vs) (search (vl vs) (va_addr x) 0)) as [w|]; [destruct (bytes_eqb (va_addr w) (va_addr x))|]; split; reflexivity.
Qed.

Lemma add_rec_Forall (P : val16 -> Prop) l x : P x -> Forall P l -> Forall P (fst (add_rec l x)).
Proof.
  intro Hx. induction 1 as [|v t Hv Ht IH]; cbn [add_rec]; [repeat constructor; exact Hx|].
  destruct (bytes_leb (va_addr x) (va_addr v)).
  - destruct (bytes_eqb (va_addr v) (va_addr x)); repeat constructor; assumption.
  - destruct (add_rec t x) as [t' b]. constructor; assumption.
Qed.

Lemma add_rec_sorted l x : sorted l -> sorted (fst (add_rec l x)).
Proof.
  induction l as [|v t IH]; intro Hs; [repeat constructor|].
  destruct (sorted_inv v t Hs) as [Hst Hall]. cbn [add_rec].
  destruct (bytes_leb (va_addr x) (va_addr v)) eqn:E.
  - destruct (bytes_eqb (va_addr v) (va_addr x)) eqn:E2; [exact Hs|]. apply sorted_cons; [exact Hs|].
    destruct (bytes_leb_true _ _ E) as [Heq|Hlt]; [rewrite Heq, bytes_eqb_refl in E2; discriminate|].
    constructor; [exact Hlt|]. apply Forall_map. apply (blt_Forall_trans _ _ _ Hlt). apply Forall_map. exact Hall.
  - pose proof (add_rec_Forall _ t x (bytes_leb_false _ _ E) Hall) as Hall'. specialize (IH Hst).
    destruct (add_rec t x) as [t' b]. apply sorted_cons; assumption.
Qed.

Theorem add_sorted vs x : sorted (vl vs) -> sorted (vl (fst (add vs x))).
Proof. intro Hs. destruct (add_spec vs x) as [-> _]. apply add_rec_sorted. exact Hs. Qed.

Fixpoint update_rec (l : list val16) (x : val16) : list val16 * bool :=
  match l with
  | [] => ([], false)
  | v :: t =>
    if bytes_leb (va_addr x) (va_addr v) then
      if bytes_eqb (va_addr v) (va_addr x) then (x :: t, true) else (l, false)
    else let '(t', b) := update_rec t x in (v :: t', b)
  end.

Lemma update_rec_eq l x :
  match nth_error l (search l (va_addr x) 0) with
  | Some v => if bytes_eqb (va_addr v) (va_addr x) then (map_nth l (search l (va_addr x) 0) (fun _ => x), true) else (l, false)
  | None => (l, false)
  end = update_rec l x.
Proof.
  induction l as [|v t IH]; [reflexivity|]. rewrite search_cons. cbn [update_rec].
  destruct (bytes_leb (va_addr x) (va_addr v)); cbn [nth_error map_nth].
  - destruct (bytes_eqb (va_addr v) (va_addr x)); reflexivity.
  - rewrite <- IH. destruct (nth_error t (search t (va_addr x) 0)) as [w|]; [destruct (bytes_eqb (va_addr w) (va_addr x))|]; reflexivity.
Qed.

Lemma update_spec vs x : vl (fst (update vs x)) = fst (update_rec (vl vs) x) /\ snd (update vs x) = snd (update_rec (vl vs) x).
Proof.
  rewrite <- update_rec_eq. unfold update.
  destruct (nth_error (vl vs) (search (vl vs) (va_addr x) 0)) as [w|]; [destruct (bytes_eqb (va_addr w) (va_addr x))|]; split; reflexivity.
Qed.

Lemma update_rec_addrs l x : map va_addr (fst (update_rec l x)) = map va_addr l.
Proof.
  induction l as [|v t IH]; [reflexivity|]. cbn [update_rec].
  destruct (bytes_leb (va_addr x) (va_addr v)).
  - destruct (bytes_eqb (va_addr v) (va_addr x)) eqn:E; cbn [fst]; [|reflexivity].
    apply bytes_eqb_eq in E. cbn. congruence.
  - destruct (update_rec t x) as [t' b]. cbn [fst] in *. cbn. congruence.
Qed.

Theorem update_sorted vs x : sorted (vl vs) -> sorted (vl (fst (update vs x))).
Proof. intro Hs. destruct (update_spec vs x) as [-> _]. unfold sorted. rewrite update_rec_addrs. exact Hs. Qed.

Fixpoint remove_rec (l : list val16) (a : bytes) : list val16 * bool :=
  match l with
  | [] => ([], false)
  | v :: t =>
    if bytes_leb a (va_addr v) then
      if bytes_eqb (va_addr v) a then (t, true) else (l, false)
    else let '(t', b) := remove_rec t a in (v :: t', b)
  end.

Lemma remove_rec_eq l a :
  match nth_error l (search l a 0) with
  | Some v => if bytes_eqb (va_addr v) a then (remove_at l (search l a 0), true) else (l, false)
  | None => (l, false)
  end = remove_rec l a.
Proof.
  induction l as [|v t IH]; [reflexivity|]. rewrite search_cons. cbn [remove_rec].
  destruct (bytes_leb a (va_addr v)); cbn [nth_error remove_at].
  - destruct (bytes_eqb (va_addr v) a); reflexivity.
  - rewrite <- IH. destruct (nth_error t (search t a 0)) as [w|]; [destruct (bytes_eqb (va_addr w) a)|]; reflexivity.
Qed.

Lemma remove_spec vs a : vl (fst (remove vs a)) = fst (remove_rec (vl vs) a) /\ snd (remove vs a) = snd (remove_rec (vl vs) a).
Proof.
  rewrite <- remove_rec_eq. unfold remove.
  destruct (nth_error (vl vs) (search (vl vs) a 0)) as [w|]; [destruct (bytes_eqb (va_addr w) a)|]; split; reflexivity.
Qed.

Lemma remove_rec_Forall (P : val16 -> Prop) l a : Forall P l -> Forall P (fst (remove_rec l a)).
Proof.
  induction 1 as [|v t Hv Ht IH]; cbn [remove_rec]; [constructor|].
  destruct (bytes_leb a (va_addr v)).
  - destruct (bytes_eqb (va_addr v) a); [exact Ht|constructor; assumption].
  - destruct (remove_rec t a) as [t' b]. constructor; assumption.
Qed.

Lemma remove_rec_sorted l a : sorted l -> sorted (fst (remove_rec l a)).
Proof.
  induction l as [|v t IH]; intro Hs; [exact Hs|].
  destruct (sorted_inv v t Hs) as [Hst Hall]. cbn [remove_rec].
  destruct (bytes_leb a (va_addr v)); [destruct (bytes_eqb (va_addr v) a); assumption|].
  pose proof (remove_rec_Forall _ t a Hall) as Hall'. specialize (IH Hst).
  destruct (remove_rec t a) as [t' b]. apply sorted_cons; assumption.
Qed.

Theorem remove_sorted vs a : sorted (vl vs) -> sorted (vl (fst (remove vs a))).
Proof. intro Hs. destruct (remove_spec vs a) as [-> _]. apply remove_rec_sorted. exact Hs. Qed.

Lemma map_nth_addrs l i f : (forall v, va_addr (f v) = va_addr v) -> map va_addr (map_nth l i f) = map va_addr l.
Proof. intro Hf. revert i; induction l as [|v t IH]; intros [|i]; cbn; auto; rewrite ?Hf, ?IH; reflexivity. Qed.

Lemma incr_once_addrs vs vs' : incr_once vs = Ok vs' -> map va_addr (vl vs') = map va_addr (vl vs).
Proof.
  unfold incr_once. destruct (vl vs) as [|v0 t0] eqn:El; [discriminate|]. rewrite <- El.
  destruct (total_vp _) as [t vs1]. intro E. injection E as <-. cbn [vl].
  rewrite map_nth_addrs by reflexivity. rewrite map_map. reflexivity.
Qed.

Lemma incr_n_addrs n : forall vs vs', incr_n vs n = Ok vs' -> map va_addr (vl vs') = map va_addr (vl vs).
Proof.
  induction n as [|n IH]; intros vs vs'; cbn; [intro E; injection E as <-; reflexivity|].
  destruct (incr_once vs) as [vs1|e|w] eqn:E1; try discriminate. intro E.
  rewrite (IH _ _ E). eapply incr_once_addrs; eauto.
Qed.

Theorem increment_sorted vs t vs' : increment vs t = Ok vs' -> sorted (vl vs) -> sorted (vl vs').
Proof. unfold increment, sorted. intros E Hs. rewrite (incr_n_addrs _ _ _ E). exact Hs. Qed.

Lemma incr_n_add a b : forall vs, incr_n vs (a + b) = match incr_n vs a with Ok vs' => incr_n vs' b | e => e end.
Proof.
  induction a as [|a IH]; intro vs; cbn; [reflexivity|].
  destruct (incr_once vs) as [vs1|e|w]; [apply IH|reflexivity|reflexivity].
Qed.

Theorem batched_eq_singles vs a b : 0 <= a -> 0 <= b ->
  increment vs (a + b) = match increment vs a with Ok vs' => increment vs' b | e => e end.
Proof. intros Ha Hb. unfold increment. rewrite Z2Nat.inj_add by assumption. apply incr_n_add. Qed.

Lemma insert_sorted_Forall (P : val16 -> Prop) x l : P x -> Forall P l -> Forall P (insert_sorted x l).
Proof.
  intro Hx. induction 1 as [|v t Hv Ht IH]; cbn [insert_sorted]; [repeat constructor; exact Hx|].
  destruct (bytes_ltb (va_addr x) (va_addr v)); repeat constructor; assumption.
Qed.

Lemma sort_vals_Forall (P : val16 -> Prop) l : Forall P l -> Forall P (sort_vals l).
Proof. induction 1 as [|x t Hx Ht IH]; [constructor|]. apply insert_sorted_Forall; assumption. Qed.

Lemma insert_sorted_sorted x l : sorted l -> Forall (fun w => va_addr w <> va_addr x) l -> sorted (insert_sorted x l).
Proof.
  induction l as [|v t IH]; intros Hs Hn; [repeat constructor|].
  destruct (sorted_inv v t Hs) as [Hst Hall]. inversion Hn as [|? ? Hv Hnt]; subst. cbn [insert_sorted].
  unfold bytes_ltb. destruct (bytes_cmp (va_addr x) (va_addr v)) eqn:Ec.
  - apply bytes_cmp_eq in Ec. congruence.
  - apply sorted_cons; [exact Hs|]. constructor; [exact Ec|].
    apply Forall_map. apply (blt_Forall_trans _ _ _ Ec). apply Forall_map. exact Hall.
  - assert (Hlt : blt (va_addr v) (va_addr x)) by (unfold blt; rewrite bytes_cmp_antisym, Ec; reflexivity).
    apply sorted_cons; [exact (IH Hst Hnt)|]. apply insert_sorted_Forall; assumption.
Qed.

Lemma sort_vals_sorted l : NoDup (map va_addr l) -> sorted (sort_vals l).
Proof.
  induction l as [|x t IH]; intro Hn; [constructor|].
  cbn [map] in Hn. inversion Hn as [|? ? Hx Ht]; subst.
  apply insert_sorted_sorted; [exact (IH Ht)|]. apply sort_vals_Forall, Forall_forall.
  intros w Hw Heq. apply Hx. rewrite <- Heq. apply in_map. exact Hw.
Qed.

Theorem new_valset_sorted vals vs : NoDup (map va_addr vals) -> new_valset vals = Ok vs -> sorted (vl vs).
Proof.
  intros Hn E. unfold new_valset in E. eapply increment_sorted; [exact E|]. cbn [vl]. apply sort_vals_sorted. exact Hn.
Qed.

Lemma T_le_sq T : 0 < T -> T <= T * T.
Proof. intro H. nia. Qed.

Definition powers (l : list val16) : list Z := map va_power l.
Definition accums (l : list val16) : list Z := map va_accum l.

Lemma argmax_from_amax l : forall i best bestv,
  argmax_from l i best bestv = amax_from (accums l) i best bestv.
Proof. induction l as [|v t IH]; intros; simpl; [reflexivity|]. destruct (bestv <? va_accum v); apply IH. Qed.
Lemma argmax_first_amax l : argmax_first l = amax (accums l).
Proof. destruct l as [|v t]; [reflexivity|]. simpl. apply argmax_from_amax. Qed.

Lemma In_map_nth (f : val16 -> Z) l v : In v l -> exists i, nth i (map f l) 0 = f v.
Proof.
  intro Hv. apply (In_nth _ _ v) in Hv as (i & Hi & <-). exists i.
  rewrite (nth_indep _ 0 (f v)) by (rewrite map_length; exact Hi). apply List.map_nth.
Qed.

Lemma powers_nonneg l : (forall v, In v l -> 0 <= va_power v) -> forall i, 0 <= nth i (powers l) 0.
Proof.
  intros Hn i. destruct (nth_in_or_default i (powers l) 0) as [Hin| ->]; [|lia].
  apply in_map_iff in Hin as (w & <- & Hw). exact (Hn w Hw).
Qed.

Lemma sum_power_fold l acc : (forall v, In v l -> 0 <= va_power v) -> 0 <= acc ->
  acc + sumZ (powers l) < 9223372036854775808 ->
  fold_left (fun a v => wrap64 (a + va_power v)) l acc = acc + sumZ (powers l).
Proof.
  revert acc; induction l as [|v t IH]; intros acc Hn Ha Hb; simpl in *; [lia|].
  assert (0 <= va_power v) by (apply Hn; auto).
  pose proof (sumZ_nonneg (powers t) (powers_nonneg t (fun x Hx => Hn x (or_intror Hx)))).
  rewrite wrap64_small by lia. rewrite IH; [lia| intros x Hx; apply Hn; auto | lia | lia].
Qed.

Lemma accums_map_add (f : val16 -> val16) l :
  (forall v, In v l -> f v = set_accum v (va_accum v + va_power v)) ->
  accums (map f l) = zadd (accums l) (powers l).
Proof.
  induction l as [|v t IH]; intro Hf; [reflexivity|].
  cbn [map accums powers zadd]. rewrite Hf by (left; reflexivity). cbn [set_accum va_accum]. f_equal.
  apply IH. intros w Hw. apply Hf. right. exact Hw.
Qed.

Lemma accums_zeros l : Forall (fun v => va_accum v = 0) l -> accums l = zeros (powers l).
Proof.
  unfold zeros, powers. rewrite map_length. induction 1 as [|v t Hv _ IH]; [reflexivity|].
  cbn. rewrite Hv. f_equal. exact IH.
Qed.

Lemma powers_map_nth l : forall i f, (forall v, va_power (f v) = va_power v) -> powers (map_nth l i f) = powers l.
Proof. induction l as [|v t IH]; intros [|i] f Hf; cbn; auto; rewrite ?Hf, ?IH; auto. Qed.

Lemma accums_map_nth_sub T l : forall j, (forall v, In v l -> - (T * T) - T <= va_accum v <= T * T + T) ->
  T * T < 1152921504606846976 -> 0 < T ->
  accums (map_nth l j (fun v => set_accum v (wrap64 (va_accum v - T)))) = upd (accums l) j (- T).
Proof.
  induction l as [|v t IH]; intros [|j] Hb Hsq Hpos; cbn [map_nth accums map upd]; auto.
  - cbn [set_accum va_accum]. pose proof (T_le_sq T Hpos). rewrite wrap64_small by (specialize (Hb v (or_introl eq_refl)); lia). reflexivity.
  - f_equal. apply IH; auto. intros w Hw. apply Hb. right. exact Hw.
Qed.

Lemma addr_nth_map (f : val16 -> val16) : (forall v, va_addr (f v) = va_addr v) ->
  forall l j d, va_addr (nth j (map f l) d) = nth j (map va_addr l) (va_addr d).
Proof. intros Hf. induction l as [|v t IH]; intros [|j] d; cbn; auto. Qed.

Definition tame (T : Z) (vs : valset) : Prop :=
  vl vs <> [] /\ (forall i, 0 <= nth i (powers (vl vs)) 0) /\ sumZ (powers (vl vs)) = T /\ 0 < T /\
  T * T < 1152921504606846976 /\ (v_tvp vs = 0 \/ v_tvp vs = T) /\
  (forall i, - (T * T) <= nth i (accums (vl vs)) 0 <= T * T).

Lemma incr_once_pstep T vs : tame T vs ->
  exists vs', incr_once vs = Ok vs' /\
    powers (vl vs') = powers (vl vs) /\ map va_addr (vl vs') = map va_addr (vl vs) /\
    accums (vl vs') = snd (pstep (powers (vl vs)) (accums (vl vs))) /\
    v_prop vs' = Some (nth (fst (pstep (powers (vl vs)) (accums (vl vs)))) (map va_addr (vl vs)) []) /\
    v_tvp vs' = T.
Proof.
  intros (Hne & Hnn & HT & Hpos & Hsq & Hc & Hacc).
  pose proof (T_le_sq T Hpos) as HTsq.
  (* no addition of a power to an accumulator wraps *)
  set (f := fun v => set_accum v (wrap64 (va_accum v + wrap64 (va_power v * 1)))).
  assert (Hf : forall v, In v (vl vs) -> 0 <= va_power v /\ f v = set_accum v (va_accum v + va_power v) /\
                                       - (T * T) - T <= va_accum v + va_power v <= T * T + T).
  { intros v Hv. destruct (In_map_nth va_power _ _ Hv) as (i & Hi). destruct (In_map_nth va_accum _ _ Hv) as (j & Hj).
    pose proof (Hnn i) as H0. pose proof (nth_le_sumZ _ Hnn i) as H1. pose proof (Hacc j) as H2.
    fold (powers (vl vs)) in Hi. fold (accums (vl vs)) in Hj. rewrite Hi, HT in *. rewrite Hj in H2.
    split; [exact H0|]. split; [|lia]. unfold f. rewrite (wrap64_small (va_power v * 1)) by lia. rewrite wrap64_small by lia. f_equal. lia. }
  assert (Hl1acc : accums (map f (vl vs)) = zadd (accums (vl vs)) (powers (vl vs))) by (apply accums_map_add; intros v Hv; apply Hf, Hv).
  assert (Hp : powers (map f (vl vs)) = powers (vl vs)) by (unfold powers; rewrite map_map; reflexivity).
  unfold incr_once. destruct (vl vs) as [|v0 t0] eqn:El; [congruence|]. rewrite <- El in *. fold f.
  assert (Htot : total_vp (mkVSet (map f (vl vs)) (v_prop vs) (v_tvp vs)) = (T, mkVSet (map f (vl vs)) (v_prop vs) T)).
  { unfold total_vp. cbn [v_tvp vl v_prop]. destruct Hc as [Hc|Hc]; rewrite Hc.
    - cbn [Z.eqb]. unfold sum_power. rewrite sum_power_fold; rewrite ?Hp, ?HT; [reflexivity| |lia|lia].
      intros v Hv. apply in_map_iff in Hv as (w & <- & Hw). exact (proj1 (Hf w Hw)).
    - replace (T =? 0) with false by (symmetry; apply Z.eqb_neq; lia). reflexivity. }
  rewrite Htot. eexists. split; [reflexivity|]. cbn [vl v_prop v_tvp].
  set (i := argmax_first (map f (vl vs))).
  assert (Hi : i = amax (zadd (accums (vl vs)) (powers (vl vs)))) by (unfold i; rewrite argmax_first_amax, Hl1acc; reflexivity).
  split; [|split; [|split; [|split]]].
  - rewrite powers_map_nth by reflexivity. exact Hp.
  - rewrite map_nth_addrs by reflexivity. rewrite map_map. reflexivity.
  - unfold pstep. cbn [snd]. rewrite <- Hi. rewrite <- Hl1acc. rewrite HT.
    apply accums_map_nth_sub; auto. intros v Hv. apply in_map_iff in Hv as (w & <- & Hw).
    destruct (Hf w Hw) as (_ & -> & Hb). exact Hb.
  - f_equal. unfold pstep. cbn [fst]. rewrite <- Hi. apply (addr_nth_map f). reflexivity.
  - reflexivity.
Qed.

Fixpoint mrun (vs : valset) (n : nat) : res (list (option bytes) * valset) :=
  match n with
  | O => Ok ([], vs)
  | S n' =>
    match incr_once vs with
    | Ok vs1 => match mrun vs1 n' with
                | Ok (tr, vs2) => Ok (v_prop vs1 :: tr, vs2)
                | Err e => Err e | Panic w => Panic w
                end
    | Err e => Err e | Panic w => Panic w
    end
  end.

Lemma mrun_incr_n n : forall vs tr vs', mrun vs n = Ok (tr, vs') -> incr_n vs n = Ok vs'.
Proof.
  induction n as [|n IH]; intros vs tr vs'; cbn; [intro E; injection E as _ <-; reflexivity|].
  destruct (incr_once vs) as [vs1|e|w]; try discriminate.
  destruct (mrun vs1 n) as [[tr1 vs2]|e|w] eqn:Em; try discriminate.
  intro E. injection E as _ <-. eapply IH; eauto.
Qed.

Section FairModel.
Variable ps : list Z.
Variable addrs : list bytes.
Hypothesis ps_nonneg : forall i, 0 <= nth i ps 0.
Let T := sumZ ps.
Hypothesis T_pos : 0 < T.
Hypothesis T_small : T * T < 1152921504606846976.

Definition at_step (m : nat) (vs : valset) : Prop :=
  powers (vl vs) = ps /\ map va_addr (vl vs) = addrs /\
  accums (vl vs) = snd (prun ps (zeros ps) m) /\ (v_tvp vs = 0 \/ v_tvp vs = T).

Lemma at_step_tame m vs : at_step m vs -> tame T vs.
Proof.
  intros (Hp & Ha & Hacc & Hc). unfold tame. rewrite Hp, Hacc.
  split; [|repeat split; auto; apply prun_bounded; assumption].
  intro E. rewrite E in Hp. cbn in Hp. subst ps. unfold T in T_pos. cbn in T_pos. lia.
Qed.

Lemma at_step_next m vs : at_step m vs ->
  exists vs', incr_once vs = Ok vs' /\ at_step (S m) vs' /\
    v_prop vs' = Some (nth (fst (pstep ps (snd (prun ps (zeros ps) m)))) addrs []).
Proof.
  intro Hat. pose proof Hat as (Hp & Ha & Hacc & Hc).
  destruct (incr_once_pstep T vs (at_step_tame m vs Hat)) as (vs' & E & P1 & P2 & P3 & P4 & P5).
  exists vs'. split; [exact E|]. rewrite Hp, Hacc, Ha in *. split.
  - unfold at_step. split; [congruence|]. split; [congruence|]. split; [|right; exact P5].
    rewrite P3. rewrite prun_snoc_snd. reflexivity.
  - exact P4.
Qed.

Lemma mrun_prun n : forall m vs, at_step m vs ->
  exists vs', at_step (m + n) vs' /\
    mrun vs n = Ok (map (fun i => Some (nth i addrs [])) (fst (prun ps (snd (prun ps (zeros ps) m)) n)), vs').
Proof.
  induction n as [|n IH]; intros m vs Hat.
  - exists vs. rewrite Nat.add_0_r. split; [exact Hat|reflexivity].
  - destruct (at_step_next m vs Hat) as (vs1 & E & Hat1 & Hprop).
    destruct (IH (S m) vs1 Hat1) as (vs2 & Hat2 & Hrun).
    exists vs2. split; [replace (m + S n)%nat with (S m + n)%nat by lia; exact Hat2|].
    rewrite prun_snoc_snd in Hrun.
    cbn [mrun]. rewrite E, Hrun, Hprop. rewrite prun_S. cbn [fst map]. reflexivity.
Qed.

Theorem fair_every_window vs s : at_step 0 vs ->
  exists sel vs',
    mrun vs (s + Z.to_nat T) = Ok (map (fun i => Some (nth i addrs [])) sel, vs') /\
    length sel = (s + Z.to_nat T)%nat /\
    forall i, cnt (skipn s sel) i = nth i ps 0.
Proof.
  intro Hat. destruct (mrun_prun (s + Z.to_nat T) 0 vs Hat) as (vs' & _ & Hrun).
  cbn [prun snd] in Hrun.
  exists (fst (prun ps (zeros ps) (s + Z.to_nat T))), vs'. split; [exact Hrun|]. split.
  - apply prun_fst_length.
  - apply (every_window ps ps_nonneg T_pos s).
Qed.

End FairModel.

Theorem new_valset_at_step vals vs :
  (forall v, In v vals -> va_accum v = 0) ->
  let ps := powers (sort_vals vals) in
  (forall i, 0 <= nth i ps 0) -> 0 < sumZ ps -> sumZ ps * sumZ ps < 1152921504606846976 ->
  new_valset vals = Ok vs -> at_step ps (map va_addr (sort_vals vals)) 1 vs.
Proof.
  intros Hz ps Hnn Hpos Hsm Hnew.
  assert (Hat0 : at_step ps (map va_addr (sort_vals vals)) 0 (mkVSet (sort_vals vals) None 0)).
  { unfold at_step. cbn [vl v_tvp prun snd]. split; [reflexivity|]. split; [reflexivity|]. split; [|left; reflexivity].
    apply accums_zeros, sort_vals_Forall, Forall_forall. exact Hz. }
  destruct (at_step_next ps _ Hnn Hpos Hsm 0 _ Hat0) as (vs' & E & Hat1 & _).
  unfold new_valset, increment in Hnew. change (Z.to_nat 1) with 1%nat in Hnew. cbn [incr_n] in Hnew.
  rewrite E in Hnew. injection Hnew as <-. exact Hat1.
Qed.
