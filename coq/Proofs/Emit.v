(* What an honest node's votes mean, in terms of the votes delivered to it.  For every vote a node
   emits while it handles an input at the height under study:
   - a precommit for a block: valid prevotes for that block, at that round, from validators with
     more than two thirds of the power were delivered to the node before;
   - a prevote for something else than a block the node precommitted in an earlier round: valid
     prevotes for something else than that block from more than two thirds, at a round in between,
     were delivered to the node before.
   These are the local forms of the rules R2 and R3 of Proofs/Protocol.v, stated on delivered
   votes (which only grow) rather than on the node's state.  They hold in the configuration without
   skip-commit and for timeouts of rounds the node has reached ([input_ok]). *)
From Coq Require Import List NArith ZArith Lia Bool.
From AnnVerif Require Import Base.Res Model.VoteSet Model.Node
 Proofs.BytesProofs Proofs.PowerSum Proofs.VoteSetProofs Proofs.NodeProofs Proofs.NodeSteps Proofs.Backed Proofs.NodeBacked.
Import ListNotations.
Open Scope Z_scope.

Section Emit.
Variable VS : list validator.
Hypothesis Hbounded : bounded VS.
Variable h0 : Z.

Definition Qr (P : nat -> bool) : Prop := two_thirds VS < pow_of VS P.

(* for each block precommit (r0, b) emitted: the node is still locked on b since r0 or later, or holds
   a polka for something else in a later round (what a later prevote of it may rest on) *)
Definition Kinv (pcs : list (Z * block_id)) (n : node) : Prop :=
  forall r0 b, In (r0, b) pcs ->
    b_hash b <> [] /\ r0 <= round n /\
    ((exists B, lblock n = Some B /\ bk_hash B = b_hash b /\ r0 <= lround n) \/
     (exists r x, r0 < r <= round n /\ polka_at (votes n) r x /\ b_hash x <> b_hash b)).

(* the invariant carried through an input: vote sets backed by the delivered votes [off], the lock
   invariant, and [Kinv] for the block precommits [pcs] the node has emitted at this height *)
Definition J (off : list vote) (pcs : list (Z * block_id)) (n : node) : Prop :=
  node_ok VS h0 off n /\ inv n /\ (height n = h0 -> Kinv pcs n).

Lemma J_mono off off' pcs n : incl off off' -> J off pcs n -> J off' pcs n.
Proof. intros Hi (A & B & C). split; [eapply node_ok_mono; eauto|auto]. Qed.

Lemma hashes_to_false_neq B x b : bk_hash B = b_hash b -> b_hash b <> [] -> hashes_to (Some B) (b_hash x) = false -> b_hash x <> b_hash b.
Proof.
  intros E Hb Hf Heq. unfold hashes_to in Hf. rewrite Heq in Hf. destruct (b_hash b) eqn:Eb; [contradiction|].
  rewrite E, bytes_eqb_refl in Hf. discriminate.
Qed.

Lemma Kinv_G pcs n n' : G n n' -> inv n -> height n' = height n -> Kinv pcs n -> Kinv pcs n'.
Proof.
  intros HG Hi Hh HK r0 b Hin. destruct (HG Hi) as (_ & _ & S). destruct (S Hh) as ((Hp & _) & HL & Hr).
  destruct (HK r0 b Hin) as (Hb & Hr0 & [ (B & El & Eh & Hlr) | (r & x & Hrr & Hpk & Hx) ]).
  - split; [exact Hb|]. split; [lia|]. unfold L in HL. rewrite El in HL.
    destruct HL as [(B' & El' & Eh' & Hlr')|(r & x & A1 & A2 & A3 & A4)].
    + left. exists B'. repeat split; [exact El'|congruence|lia].
    + right. exists r, x. split; [lia|]. split; [exact A3|]. eapply hashes_to_false_neq; eauto.
  - split; [exact Hb|]. split; [lia|]. right. exists r, x. split; [lia|]. split; [apply Hp; exact Hpk|exact Hx].
Qed.

Lemma J_of_G off pcs n m : J off pcs n -> G n m -> node_ok VS h0 off m -> J off pcs m.
Proof.
  intros (A & B & C) HG Hm. destruct (HG B) as (B' & Hh & S). split; [exact Hm|]. split; [exact B'|].
  intro E0. assert (En : height n = h0) by (destruct A as [L _]; lia).
  apply (Kinv_G pcs n m HG B); [congruence|auto].
Qed.

Definition pc_of (x : out) : list (Z * block_id) :=
  match x with
  | OVote 2%N r b => match b_hash b with [] => [] | _ => [(r, b)] end
  | _ => []
  end.

Definition good (off : list vote) (pcs : list (Z * block_id)) (x : out) : Prop :=
  match x with
  | OVote 2%N r b => b_hash b <> [] -> Qr (voted_for VS h0 r 1%N off b)
  | OVote 1%N r y =>
    forall r0 b, In (r0, b) pcs -> r0 < r -> b_hash y <> b_hash b ->
      exists r' x', r0 < r' <= r /\ b_hash x' <> b_hash b /\ Qr (voted_for VS h0 r' 1%N off x')
  | _ => True
  end.

(* a prevote is measured against the precommits emitted before it, those earlier in [o] included:
   [pcs] grows along the list *)
Fixpoint goods (off : list vote) (pcs : list (Z * block_id)) (o : list out) : Prop :=
  match o with
  | [] => True
  | x :: t => good off pcs x /\ goods off (pc_of x ++ pcs) t
  end.
Fixpoint pcs_after (o : list out) (pcs : list (Z * block_id)) : list (Z * block_id) :=
  match o with [] => pcs | x :: t => pcs_after t (pc_of x ++ pcs) end.

Lemma goods_app off pcs a b : goods off pcs a -> goods off (pcs_after a pcs) b -> goods off pcs (a ++ b).
Proof. revert pcs. induction a as [|x a IH]; intros pcs Ha Hb; cbn in *; [exact Hb|]. destruct Ha as [H1 H2]. split; [exact H1|apply IH; assumption]. Qed.
Lemma pcs_after_app a b pcs : pcs_after (a ++ b) pcs = pcs_after b (pcs_after a pcs).
Proof. revert pcs. induction a as [|x a IH]; intro pcs; cbn; [reflexivity|apply IH]. Qed.

Lemma goods_quiet off pcs o : no_votes o -> goods off pcs o /\ pcs_after o pcs = pcs.
Proof.
  revert pcs. induction o as [|x t IH]; intros pcs H; cbn; [auto|].
  assert (Hx : match x with OVote _ _ _ => False | _ => True end) by (apply H; left; reflexivity).
  assert (Hp : pc_of x = []) by (destruct x; try reflexivity; contradiction).
  rewrite Hp. cbn [app]. destruct (IH pcs (fun y Hy => H y (or_intror Hy))) as [A B].
  split; [split; [destruct x; try exact I; contradiction|exact A]|exact B].
Qed.

Lemma prevote_good off pcs n n' o : J off pcs n -> height n = h0 -> do_prevote n = Ok (n', o) -> goods off pcs o /\ pcs_after o pcs = pcs.
Proof.
  intros HJ Hh E.
  assert (Hshape : o = [] \/ exists y, o = [OVote 1 (round n) y]).
  { pose proof E as E'. apply do_prevote_inv in E' as (b & Es & _).
    destruct (sign_add_vote_shape _ _ _ _ _ Es) as [->| ->]; eauto. }
  destruct Hshape as [->|(y & ->)]; cbn [pcs_after goods pc_of app]; [auto|].
  split; [|reflexivity]. split; [|exact I].
  destruct (prevote_rule n n' _ (OVote 1 (round n) y) E (or_introl eq_refl)) as (y' & Ey & Hy). injection Ey as <-.
  cbn [good]. intros r0 b Hin Hlt Hne. destruct HJ as ((_ & Hok) & Hi & HK). destruct (Hok Hh) as [Hhv Hhh].
  destruct (HK Hh r0 b Hin) as (Hb & _ & [ (B & El & Eh & _) | (r & x' & Hrr & Hpk & Hx') ]).
  - exfalso. rewrite El in Hy. subst y. apply Hne. cbn. exact Eh.
  - exists r, x'. split; [exact Hrr|]. split; [exact Hx'|].
    pose proof (polka_backed VS Hbounded off (votes n) r x' Hhv Hpk) as Hq'. rewrite Hhh in Hq'. exact Hq'.
Qed.

Lemma precommit_good off pcs h r n n' o : J off pcs n -> height n = h0 -> r <= round n -> enter_precommit h r n = Ok (n', o) ->
  J off pcs n' -> J off (pcs_after o pcs) n' /\ goods off pcs o.
Proof.
  intros HJ Hh Hle E HJ'.
  assert (Hshape : o = [] \/ exists b, o = [OVote 2 (round n) b] /\ round n = r).
  { pose proof E as E'. apply enter_precommit_inv in E' as [[_ ->]|(Hr & _ & m & vb & n2 & Hc & Es & _)]; [auto|].
    destruct (pc_choice_same _ _ _ _ Hc) as (_ & _ & Hrm & _).
    destruct (sign_add_vote_shape _ _ _ _ _ Es) as [->| ->]; [auto|]. right. exists vb. rewrite Hrm. split; [reflexivity|lia]. }
  destruct Hshape as [->|(b & -> & Hr)]; [cbn; auto|].
  destruct (precommit_rule h r n n' _ 2%N (round n) b E (or_introl eq_refl)) as (_ & _ & Hrule).
  cbn [pcs_after goods good pc_of]. destruct (b_hash b) as [|x xs] eqn:Eb.
  - cbn [app]. split; [exact HJ'|]. split; [intro H; exfalso; apply H; reflexivity|exact I].
  - cbn [app]. assert (Hne : b_hash b <> []) by (rewrite Eb; discriminate).
    destruct (Hrule ltac:(discriminate)) as (Hpk & B & El & Ebh & Elr).
    destruct HJ as ((_ & Hok) & Hi & HK). destruct (Hok Hh) as [Hhv Hhh].
    split.
    + destruct HJ' as (A' & B' & C'). split; [exact A'|]. split; [exact B'|].
      intro E0. intros r0 b0 [Heq|Hin]; [|apply (C' E0 r0 b0 Hin)].
      injection Heq as <- <-. split; [exact Hne|].
      assert (Hrr : lround n' <= round n') by (unfold inv in B'; rewrite El in B'; destruct B' as (_ & H2 & _); exact H2).
      split; [lia|]. left. exists B. repeat split; [exact El|rewrite Ebh, Eb; reflexivity|lia].
    + split; [|exact I]. intros _. rewrite Hr.
      pose proof (polka_backed VS Hbounded off (votes n) r b Hhv Hpk) as Hq. rewrite Hhh in Hq. exact Hq.
Qed.

(* inputs a node can get: timeouts are for rounds it has reached (it scheduled them itself) *)
Definition input_ok (i : input) (n : node) : Prop :=
  match i with ITimeout _ r _ => r <= round n | _ => True end.

Lemma act_T (reached : Prop) dv off pcs n o n' : reached -> incl dv off -> act reached dv n o n' -> J off pcs n -> height n = h0 ->
  J off (pcs_after o pcs) n' /\ goods off pcs o.
Proof.
  intros Hok Hdv Ha HJ Hh.
  assert (HJ' : J off pcs n') by (apply (J_of_G _ _ n); [exact HJ|eapply act_G; exact Ha|eapply (act_ok VS Hbounded); [exact Hdv|exact Ha|apply HJ]]).
  assert (Hq : no_votes o -> J off (pcs_after o pcs) n' /\ goods off pcs o).
  { intro Q. destruct (goods_quiet off pcs o Q) as [A ->]. auto. }
  destruct Ha as [n o n' (_ & _ & Q)|n n' o E|n n' o E|h r n n' o E Hr|n R|n k hv E|n v peer hv added code _ E];
    try (apply Hq; intros x []).
  - apply Hq, quiet_no_votes, Q.
  - destruct (prevote_good _ _ _ _ _ HJ Hh E) as [A ->]. auto.
  - apply Hq, quiet_no_votes. eapply decide_proposal_quiet; exact E.
  - exact (precommit_good off pcs h r n n' o HJ Hh (Hr Hok) E HJ').
Qed.

Lemma acts_T (reached : Prop) dv off n o n' : reached -> incl dv off -> acts reached dv n o n' -> forall pcs, J off pcs n -> height n = h0 ->
  J off (pcs_after o pcs) n' /\ goods off pcs o.
Proof.
  intros Hok Hdv. induction 1 as [|n o1 m o2 n' H1 H2 IH]; intros pcs HJ Hh; [cbn; auto|].
  destruct (act_T _ _ _ _ _ _ _ Hok Hdv H1 HJ Hh) as [J1 G1].
  destruct (IH _ J1) as [J2 G2]; [rewrite (proj1 (act_keeps _ _ _ _ _ H1)); exact Hh|].
  rewrite pcs_after_app. split; [exact J2|apply goods_app; assumption].
Qed.

Lemma trace_T (reached : Prop) dv off c : c_skip_commit c = false -> reached -> incl dv off -> forall n o n', trace reached dv c n o n' ->
  forall pcs, J off pcs n -> height n = h0 -> J off (pcs_after o pcs) n' /\ goods off pcs o.
Proof.
  intros Hs Hok Hdv n o n' [? ? ? Ha|? o1 m h m' o2 o3 ? Ha Hf _ _ Hq] pcs HJ Hh;
    [exact (acts_T reached dv off _ _ _ Hok Hdv Ha pcs HJ Hh)|].
  destruct (Hq Hs) as [-> Q3]. destruct (acts_T reached dv off _ _ _ Hok Hdv Ha pcs HJ Hh) as [J1 G1].
  assert (Q2 : no_votes (o2 ++ o3)).
  { intros x Hx. apply in_app_or in Hx as [Hx|Hx]; [|apply (quiet_no_votes _ Q3 x Hx)].
    apply finalize_commit_next in Hf as [[_ ->]|(_ & _ & _ & hash & ->)]; [destruct Hx|].
    destruct Hx as [<-|[<-|[]]]; exact I. }
  destruct (goods_quiet off (pcs_after o1 pcs) _ Q2) as [G2 P2].
  rewrite pcs_after_app, P2. split; [|apply goods_app; [exact G1|exact G2]].
  apply (J_of_G _ _ m); [exact J1|eapply sat_finalize_commit; exact Hf|eapply finalize_ok; [exact Hf|apply J1]].
Qed.

Theorem T_handle c i : c_skip_commit c = false ->
  forall off pcs n n' o, J off pcs n -> height n = h0 -> input_ok i n -> handle c i n = Ok (n', o) ->
    J (delivered_of i ++ off) (pcs_after o pcs) n' /\ goods (delivered_of i ++ off) pcs o.
Proof.
  intros Hs off pcs n n' o HJ Hh Hi E.
  apply (trace_T (input_ok i n) (delivered_of i) _ c Hs Hi) with (n := n); [apply incl_appl, incl_refl| | |exact Hh].
  - eapply handle_trace; [intros h r s -> H; exact H|intros v peer ->; left; reflexivity|exact E].
  - eapply J_mono; [|exact HJ]. apply incl_appr, incl_refl.
Qed.

Lemma goods_mono off off' pcs o : incl off off' -> goods off pcs o -> goods off' pcs o.
Proof.
  intro Hi. revert pcs. induction o as [|x t IH]; intros pcs; cbn; [auto|]. intros [H1 H2]. split; [|apply IH; exact H2].
  destruct x as [ty r b| | | | |]; try exact I. cbn [good] in *.
  assert (Hq : forall r' x', Qr (voted_for VS h0 r' 1%N off x') -> Qr (voted_for VS h0 r' 1%N off' x')).
  { intros r' x' Hq. unfold Qr in *. eapply Z.lt_le_trans; [exact Hq|]. apply pow_from_mono; [apply Hbounded|].
    intros i _. now apply voted_for_incl. }
  (* only the types 1 and 2 ask for anything *)
  destruct ty as [|[p|[p|p|]|]]; try exact I.
  - intro Hb. apply Hq. apply H1. exact Hb.
  - intros r0 b0 Hin Hlt Hne. destruct (H1 r0 b0 Hin Hlt Hne) as (r' & x' & A & B & C). exists r', x'. auto.
Qed.

End Emit.
