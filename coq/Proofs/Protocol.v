(* Agreement for one height from the causal honest-validator rules R0-R3, for weighted validators
   with Byzantine power below one third.  The trace is the global, ordered history of signed
   votes; every rule refers to the prefix before the event it constrains.  The rules are what
   Model.Node guarantees of an honest validator: R0/R1 from the signer, R2 from the precommit rule,
   R3 from the lock invariant, and a commit needs +2/3 precommits in one round (the commit rule).
   Proofs/System.v shows them of the trace of a system of such nodes and applies [agreement]. *)
From Coq Require Import List ZArith Lia Bool.
Import ListNotations.
Open Scope Z_scope.

Section Protocol.
Variable val : Type.
Variable val_eqb : val -> val -> bool.
Hypothesis val_eqb_spec : forall a b, reflect (a = b) (val_eqb a b).
Variable blk : Type.
Variable blk_eqb : blk -> blk -> bool.
Hypothesis blk_eqb_spec : forall a b, reflect (a = b) (blk_eqb a b).

Variable vals : list val.
Variable power : val -> Z.
Hypothesis power_nonneg : forall v, 0 <= power v.
Variable byz : val -> bool.

Fixpoint pow (P : val -> bool) (l : list val) : Z :=
  match l with [] => 0 | v :: l' => (if P v then power v else 0) + pow P l' end.
Definition powS (P : val -> bool) := pow P vals.
Definition total := powS (fun _ => true).
Hypothesis byz_bound : 3 * powS byz < total.

Inductive vtype := Prevote | Precommit.
Definition vtype_eqb a b := match a, b with Prevote, Prevote | Precommit, Precommit => true | _, _ => false end.
Record vote := { voter : val; vround : nat; vty : vtype; vval : option blk }.
Definition trace := list vote.

Definition oeqb (a b : option blk) : bool :=
  match a, b with Some x, Some y => blk_eqb x y | None, None => true | _, _ => false end.
Lemma oeqb_spec a b : reflect (a = b) (oeqb a b).
Proof.
  destruct a as [x|], b as [y|]; simpl; try (constructor; congruence).
  destruct (blk_eqb_spec x y); constructor; congruence.
Qed.

Definition is_vote (v : val) (r : nat) (t : vtype) (x : option blk) (e : vote) : bool :=
  val_eqb (voter e) v && Nat.eqb (vround e) r && vtype_eqb (vty e) t && oeqb (vval e) x.
Definition voted (tr : trace) (r : nat) (t : vtype) (x : option blk) (v : val) : bool :=
  existsb (is_vote v r t x) tr.
Definition quorum (P : val -> bool) : Prop := 2 * total < 3 * powS P.
Definition polka (tr : trace) (r : nat) (x : option blk) := quorum (voted tr r Prevote x).
Definition commitq (tr : trace) (r : nat) (b : blk) := quorum (voted tr r Precommit (Some b)).

Definition honest (v : val) := byz v = false.

Definition step_le (r1 : nat) (t1 : vtype) (r2 : nat) (t2 : vtype) : Prop :=
  (r1 < r2)%nat \/ (r1 = r2 /\ (t1 = Prevote \/ t2 = Precommit)).

Definition R0 (tr : trace) := forall pre e post, tr = pre ++ e :: post -> honest (voter e) ->
  forall e0, In e0 pre -> voter e0 = voter e -> step_le (vround e0) (vty e0) (vround e) (vty e).
Definition R1 (tr : trace) := forall pre e post, tr = pre ++ e :: post -> honest (voter e) ->
  forall e0, In e0 pre -> voter e0 = voter e -> vround e0 = vround e -> vty e0 = vty e -> False.
Definition R2 (tr : trace) := forall pre e post b, tr = pre ++ e :: post -> honest (voter e) ->
  vty e = Precommit -> vval e = Some b -> polka pre (vround e) (Some b).
Definition R3 (tr : trace) := forall pre e post e0 b, tr = pre ++ e :: post -> honest (voter e) ->
  vty e = Prevote -> In e0 pre -> voter e0 = voter e -> vty e0 = Precommit -> vval e0 = Some b ->
  (vround e0 < vround e)%nat -> vval e <> Some b ->
  exists r'' y, (vround e0 < r'' <= vround e)%nat /\ y <> Some b /\ polka pre r'' y.

Lemma pow_nonneg P l : 0 <= pow P l.
Proof. induction l as [|v l IH]; simpl; [lia|]. destruct (P v); specialize (power_nonneg v); lia. Qed.

Lemma pow_inter P Q l : pow P l + pow Q l <= pow (fun _ => true) l + pow (fun v => P v && Q v) l.
Proof.
  induction l as [|v l IH]; cbn [pow]; [lia|].
  pose proof (power_nonneg v) as Hn. destruct (P v), (Q v); cbn [andb]; lia.
Qed.

Lemma pow_pos_ex P l : 0 < pow P l -> exists v, In v l /\ P v = true.
Proof.
  induction l as [|v l IH]; simpl; [lia|]. intros H.
  destruct (P v) eqn:E; [exists v; auto|]. destruct IH as [w [Hw Hp]]; [lia|]. exists w; auto.
Qed.

Lemma pow_mono P Q l : (forall v, In v l -> P v = true -> Q v = true) -> pow P l <= pow Q l.
Proof.
  induction l as [|v l IH]; simpl; intros H; [lia|].
  specialize (power_nonneg v).
  assert (pow P l <= pow Q l) by (apply IH; intros; apply H; auto).
  destruct (P v) eqn:E; [rewrite (H v (or_introl eq_refl) E); lia|]. destruct (Q v); lia.
Qed.

Lemma pow_split P l : pow P l = pow (fun v => P v && byz v) l + pow (fun v => P v && negb (byz v)) l.
Proof. induction l as [|v l IH]; simpl; [lia|]. destruct (P v), (byz v); simpl; lia. Qed.

Lemma quorum_mono P Q : (forall v, In v vals -> P v = true -> Q v = true) -> quorum P -> quorum Q.
Proof. unfold quorum, powS. intros H HP. pose proof (pow_mono P Q vals H). lia. Qed.

Lemma quorum_meets P Q : quorum P -> total < 3 * powS Q -> exists v, In v vals /\ P v = true /\ Q v = true.
Proof.
  unfold quorum, total, powS. intros HP HQ.
  pose proof (pow_inter P Q vals) as Hi.
  destruct (pow_pos_ex (fun v => P v && Q v) vals) as [v [Hv Hb]]; [lia|].
  apply andb_true_iff in Hb. exists v; tauto.
Qed.

Lemma quorum_honest_third P : quorum P -> total < 3 * powS (fun v => P v && negb (byz v)).
Proof.
  unfold quorum, powS. intros HP. rewrite (pow_split P vals) in HP.
  assert (pow (fun v => P v && byz v) vals <= pow byz vals).
  { apply pow_mono. intros v _ H. apply andb_true_iff in H; tauto. }
  unfold powS in byz_bound. lia.
Qed.

Lemma quorum_meets_honest P Q : quorum P -> quorum Q ->
  exists v, P v = true /\ Q v = true /\ honest v.
Proof.
  intros HP HQ. destruct (quorum_meets P _ HP (quorum_honest_third Q HQ)) as (v & _ & Hp & Hq).
  apply andb_true_iff in Hq as [Hq Hh]. apply negb_true_iff in Hh. exists v. auto.
Qed.

Lemma vtype_eqb_eq a b : vtype_eqb a b = true <-> a = b.
Proof. destruct a, b; cbn; split; congruence. Qed.

Lemma is_vote_iff v r t x e :
  is_vote v r t x e = true <-> voter e = v /\ vround e = r /\ vty e = t /\ vval e = x.
Proof.
  unfold is_vote. rewrite !andb_true_iff, Nat.eqb_eq, vtype_eqb_eq.
  rewrite <- (reflect_iff _ _ (val_eqb_spec (voter e) v)), <- (reflect_iff _ _ (oeqb_spec (vval e) x)). tauto.
Qed.

Lemma voted_In tr r t x v : voted tr r t x v = true ->
  exists e, In e tr /\ voter e = v /\ vround e = r /\ vty e = t /\ vval e = x.
Proof.
  unfold voted. rewrite existsb_exists. intros (e & Hin & He). exists e. split; [exact Hin|]. apply is_vote_iff. exact He.
Qed.

Lemma In_voted tr e : In e tr -> voted tr (vround e) (vty e) (vval e) (voter e) = true.
Proof.
  intros H. unfold voted. rewrite existsb_exists. exists e. split; [exact H|]. apply is_vote_iff. auto.
Qed.

Lemma voted_app_l pre post r t x v : voted pre r t x v = true -> voted (pre ++ post) r t x v = true.
Proof. unfold voted. rewrite existsb_app. intros ->. reflexivity. Qed.

Lemma polka_app_l pre post r x : polka pre r x -> polka (pre ++ post) r x.
Proof. apply quorum_mono. intros v _. apply voted_app_l. Qed.

(* by R1 neither of the two events can precede the other *)
Lemma slot_unique tr : R1 tr -> forall e1 e2, In e1 tr -> In e2 tr -> honest (voter e1) ->
  voter e1 = voter e2 -> vround e1 = vround e2 -> vty e1 = vty e2 -> vval e1 = vval e2.
Proof.
  intros HR1 e1 e2 H1 H2 Hh Hv Hr Ht. apply in_split in H1 as (p & q & ->).
  apply in_app_or in H2 as [H2|[<-|H2]]; [|reflexivity|]; exfalso.
  - apply (HR1 p e1 q eq_refl Hh e2 H2); congruence.
  - apply in_split in H2 as (p' & q' & ->).
    apply (HR1 (p ++ e1 :: p') e2 q') with (e0 := e1); [rewrite <- app_assoc; reflexivity|unfold honest in *; congruence|apply in_elt|..]; congruence.
Qed.

Lemma R0_before tr pre e post e0 : R0 tr -> tr = pre ++ e :: post -> In e0 tr -> honest (voter e0) ->
  voter e = voter e0 -> ~ step_le (vround e) (vty e) (vround e0) (vty e0) -> In e0 pre.
Proof.
  intros HR0 Heq Hin Hh Hv Hn. rewrite Heq in Hin. apply in_app_or in Hin as [H|[<-|H]]; [exact H| |]; destruct Hn.
  - right. split; [reflexivity|]. destruct (vty e); auto.
  - apply in_split in H as (p1 & p2 & Hp).
    apply (HR0 (pre ++ e :: p1) e0 p2); [rewrite Heq, Hp, <- app_assoc; reflexivity|exact Hh|apply in_elt|exact Hv].
Qed.

Section Main.
Variable tr : trace.
Hypothesis HR0 : R0 tr.
Hypothesis HR1 : R1 tr.
Hypothesis HR2 : R2 tr.
Hypothesis HR3 : R3 tr.

Variable r1 : nat.
Variable b1 : blk.
Hypothesis Hcommit : commitq tr r1 b1.

(* [S]: the honest validators among the +2/3 that precommitted b1 in round r1 (they are locked on b1);
   [foreign_in l r]: one of them prevotes something else in round r within l *)
Definition S (v : val) : bool := voted tr r1 Precommit (Some b1) v && negb (byz v).
Definition foreign_in (l : trace) (r : nat) : Prop :=
  exists e, In e l /\ S (voter e) = true /\ vround e = r /\ vty e = Prevote /\ vval e <> Some b1.

Lemma polka_foreign l r y : y <> Some b1 -> polka l r y -> foreign_in l r.
Proof.
  intros Hy Hp. destruct (quorum_meets_honest _ _ Hp Hcommit) as (v & Hv & Hc & Hh).
  destruct (voted_In _ _ _ _ _ Hv) as (e & Hin & He1 & He2 & He3 & He4).
  exists e. unfold S. rewrite He1, Hc, Hh. repeat split; try assumption; congruence.
Qed.

(* key lemma, by strong induction on the round and then on the prefix *)
Lemma no_foreign_prevote_prefix : forall r, (r1 < r)%nat ->
  forall pre post, tr = pre ++ post -> ~ foreign_in pre r.
Proof.
  intros r. induction r as [r IHr] using lt_wf_ind. intros Hr pre.
  induction pre as [|a pre IHpre] using rev_ind; intros post Heq.
  - intros [e [[] _]].
  - rewrite <- app_assoc in Heq. simpl in Heq.
    specialize (IHpre (a :: post) Heq).
    intros [e [Hin [HS [Hre [Hte Hve]]]]].
    apply in_app_or in Hin. destruct Hin as [Hin|[Hin|[]]].
    + apply IHpre. exists e. tauto.
    + subst a.
      (* e is the earliest foreign prevote of round r by a member of S *)
      unfold S in HS. apply andb_true_iff in HS. destruct HS as [Hpc Hhon].
      apply negb_true_iff in Hhon.
      destruct (voted_In _ _ _ _ _ Hpc) as [e0 [Hin0 [Hv0 [Hr0 [Ht0 Hx0]]]]].
      assert (Hpre0 : In e0 pre).
      { apply (R0_before tr pre e post e0 HR0 Heq Hin0); [unfold honest; congruence|congruence|].
        unfold step_le. rewrite Hr0, Hre, Ht0, Hte. intros [Hlt|[Heqr _]]; lia. }
      destruct (HR3 pre e post e0 b1 Heq Hhon Hte Hpre0 Hv0 Ht0 Hx0) as [r'' [y [Hrr [Hy Hpk]]]];
        [rewrite Hr0, Hre; exact Hr | exact Hve |].
      rewrite Hr0, Hre in Hrr.
      destruct (polka_foreign pre r'' y Hy Hpk) as [e' He'].
      destruct (Nat.eq_dec r'' r) as [->|Hne].
      * apply IHpre. exact (ex_intro _ e' He').
      * assert (Hlt : (r'' < r)%nat) by lia.
        apply (IHr r'' Hlt (proj1 Hrr) pre (e :: post) Heq). exact (ex_intro _ e' He').
Qed.

Lemma no_foreign_polka r y : (r1 < r)%nat -> y <> Some b1 -> ~ polka tr r y.
Proof.
  intros Hr Hy Hp. apply (no_foreign_prevote_prefix r Hr tr [] (eq_sym (app_nil_r tr))).
  eapply polka_foreign; eauto.
Qed.

Theorem agreement_later r2 b2 : (r1 < r2)%nat -> commitq tr r2 b2 -> b2 = b1.
Proof.
  intros Hr Hc.
  (* some honest validator precommitted b2 at r2, hence a polka for b2 at r2 *)
  destruct (quorum_meets_honest _ _ Hc Hc) as (v & Hv & _ & Hh).
  destruct (voted_In _ _ _ _ _ Hv) as (e & Hin & He1 & He2 & He3 & He4).
  apply in_split in Hin as (pre & post & Heq).
  assert (Hhe : honest (voter e)) by (rewrite He1; exact Hh).
  pose proof (HR2 pre e post b2 Heq Hhe He3 He4) as Hp. rewrite He2 in Hp.
  destruct (blk_eqb_spec b2 b1) as [->|Hne]; [reflexivity|].
  exfalso. apply (no_foreign_polka r2 (Some b2) Hr); [congruence|].
  rewrite Heq. apply polka_app_l. exact Hp.
Qed.
End Main.

Theorem agreement_same_round tr r b1 b2 : R1 tr -> commitq tr r b1 -> commitq tr r b2 -> b1 = b2.
Proof.
  intros HR1 H1 H2.
  destruct (quorum_meets_honest _ _ H1 H2) as (v & Hv1 & Hv2 & Hh).
  destruct (voted_In _ _ _ _ _ Hv1) as (e1 & Hi1 & Ha1 & Hb1 & Hc1 & Hd1).
  destruct (voted_In _ _ _ _ _ Hv2) as (e2 & Hi2 & Ha2 & Hb2 & Hc2 & Hd2).
  assert (vval e1 = vval e2).
  { eapply slot_unique; eauto; unfold honest; congruence. }
  congruence.
Qed.

Theorem agreement tr ra a rb b : R0 tr -> R1 tr -> R2 tr -> R3 tr ->
  commitq tr ra a -> commitq tr rb b -> a = b.
Proof.
  intros H0 H1 H2 H3 Ha Hb.
  destruct (Nat.lt_trichotomy ra rb) as [Hlt|[->|Hgt]].
  - symmetry. eapply agreement_later; eauto.
  - eapply agreement_same_round; eauto.
  - eapply agreement_later; eauto.
Qed.
End Protocol.
