(* Model.Node (state.go, height_vote_set.go), function by function, for C04 (locking discipline);
   used by C01, C07, C08, C12.  A +2/3 majority the node has seen never disappears or changes within
   a height ([hv_le]).  The lock invariant [inv]: a locked node has seen +2/3 prevotes for its locked
   block in its lock round.  The relation [G] between a state and a later one: the later one keeps
   the lock on the same block (lock round not lower), or holds a +2/3 prevote majority for something
   else in a later round, or is at a later height.  Then the prevote, proposal, precommit and commit
   rules, the signer, the timeouts.  The control flow around the leaf functions is walked in
   Proofs/NodeSteps.v.
   Steps are numbered as in the code: 1 NewHeight, 2 NewRound, 3 Propose, 4 Prevote, 5 PrevoteWait,
   6 Precommit, 7 PrecommitWait, 8 Commit; the signer's steps are 1 proposal, 2 prevote, 3 precommit. *)
From Coq Require Import List NArith ZArith Bool Lia.
From AnnVerif Require Import Base.Res Base.Bytes Model.VoteSet Model.ValSet Model.Node
  Proofs.BytesProofs Proofs.VoteSetProofs.
Import ListNotations.
Open Scope Z_scope.

Definition polka_at (h : hvs) (r : Z) (x : block_id) : Prop := maj23 (hv_prevotes h r) = Some x.
Definition commit_at (h : hvs) (r : Z) (x : block_id) : Prop := maj23 (hv_precommits h r) = Some x.
Definition hv_le (h h' : hvs) : Prop :=
  (forall r x, polka_at h r x -> polka_at h' r x) /\ (forall r x, commit_at h r x -> commit_at h' r x).

Lemma hv_le_refl h : hv_le h h. Proof. split; auto. Qed.
Lemma hv_le_trans a b c : hv_le a b -> hv_le b c -> hv_le a c.
Proof. intros [A1 A2] [B1 B2]. split; auto. Qed.

Lemma zlookup_app_some {A} k (l1 l2 : list (Z * A)) v : zlookup k l1 = Some v -> zlookup k (l1 ++ l2) = Some v.
Proof. induction l1 as [|[k' v'] t IH]; cbn; [discriminate|]. destruct (k' =? k); auto. Qed.
Lemma zlookup_zupdate_eq {A} k (v : A) l : zlookup k (zupdate k v l) = Some v.
Proof. induction l as [|[k' v'] t IH]; cbn; [rewrite Z.eqb_refl; reflexivity|]. destruct (k' =? k) eqn:E; cbn; [rewrite Z.eqb_refl; reflexivity|rewrite E; exact IH]. Qed.
Lemma zlookup_zupdate_neq {A} k k2 (v : A) l : k <> k2 -> zlookup k2 (zupdate k v l) = zlookup k2 l.
Proof.
  intro Hne. induction l as [|[k' v'] t IH]; cbn.
  - destruct (Z.eqb_spec k k2); [contradiction|reflexivity].
  - destruct (Z.eqb_spec k' k) as [->|]; cbn.
    + destruct (Z.eqb_spec k k2); [contradiction|reflexivity].
    + destruct (k' =? k2); [reflexivity|exact IH].
Qed.

Lemma hv_add_round_inv h r h' : hv_add_round h r = Ok h' ->
  exists a b, zlookup r (hv_sets h) = None /\
    new_voteset (hv_height h) r 1 (hv_vals h) = Ok a /\ new_voteset (hv_height h) r 2 (hv_vals h) = Ok b /\
    h' = mkHvs (hv_height h) (hv_vals h) (hv_round h) (hv_sets h ++ [(r, mkRvs a b)]) (hv_peers h).
Proof.
  unfold hv_add_round. destruct (zlookup r (hv_sets h)); [discriminate|].
  destruct (new_voteset (hv_height h) r 1 (hv_vals h)) as [a| |]; destruct (new_voteset (hv_height h) r 2 (hv_vals h)) as [b| |]; try discriminate.
  intro E. injection E as <-. eauto 6.
Qed.

Lemma hv_set_round_rel (R : hvs -> hvs -> Prop) :
  (forall h, R h h) -> (forall a b c, R a b -> R b c -> R a c) ->
  (forall h r h', hv_add_round h r = Ok h' -> R h h') ->
  (forall h r, R h (mkHvs (hv_height h) (hv_vals h) r (hv_sets h) (hv_peers h))) ->
  forall h r h', hv_set_round h r = Ok h' -> R h h'.
Proof.
  intros Hrefl Htrans Hadd Hrec.
  assert (Hs : forall count h from h', hv_add_rounds h from count = Ok h' -> R h h').
  { induction count as [|c IH]; intros h from h'; cbn [hv_add_rounds]; [intro E; injection E as <-; apply Hrefl|].
    destruct (zlookup from (hv_sets h)); [apply IH|].
    destruct (hv_add_round h from) as [h1| |] eqn:E1; try discriminate. intro E2. eauto. }
  intros h r h'. unfold hv_set_round. destruct (_ && _); [discriminate|].
  destruct (hv_add_rounds _ _ _) as [h1| |] eqn:E; try discriminate. intro E2. injection E2 as <-. eauto.
Qed.

Lemma hv_add_round_le h r h' : hv_add_round h r = Ok h' -> hv_le h h' /\ hv_height h' = hv_height h.
Proof.
  intro E. apply hv_add_round_inv in E as (a & b & _ & _ & _ & ->). split; [|reflexivity].
  split; unfold polka_at, commit_at, hv_prevotes, hv_precommits; cbn; intros r0 x H;
    (destruct (zlookup r0 (hv_sets h)) as [rv|] eqn:El; [erewrite zlookup_app_some by exact El; exact H|discriminate]).
Qed.

Lemma hv_set_round_le h r h' : hv_set_round h r = Ok h' -> hv_le h h' /\ hv_height h' = hv_height h.
Proof.
  apply (hv_set_round_rel (fun a b => hv_le a b /\ hv_height b = hv_height a)).
  - intro a. split; [apply hv_le_refl|reflexivity].
  - intros a b c [L1 H1] [L2 H2]. split; [eapply hv_le_trans; eauto|congruence].
  - apply hv_add_round_le.
  - intros a k. split; [|reflexivity]. split; intros r0 x H; exact H.
Qed.

Lemma hv_put_get_other h r t vs r' : r <> r' ->
  hv_prevotes (hv_put h r t vs) r' = hv_prevotes h r' /\ hv_precommits (hv_put h r t vs) r' = hv_precommits h r'.
Proof.
  intro Hne. unfold hv_put, hv_prevotes, hv_precommits. destruct (zlookup r (hv_sets h)); [|auto]. cbn.
  rewrite zlookup_zupdate_neq by exact Hne. auto.
Qed.
Lemma hv_put_cmt h r t vs : N.eqb t 1 = false -> hv_prevotes (hv_put h r t vs) r = hv_prevotes h r.
Proof.
  intro Ht. unfold hv_put, hv_prevotes. destruct (zlookup r (hv_sets h)) as [rv|] eqn:El; [|rewrite El; reflexivity].
  cbn. rewrite zlookup_zupdate_eq. rewrite Ht. reflexivity.
Qed.

Lemma hv_put_le h r t vs old : hv_get h r t = Some old ->
  (forall b, vs_maj23 old = Some b -> vs_maj23 vs = Some b) -> hv_le h (hv_put h r t vs).
Proof.
  intros Hget Hkeep. unfold hv_get in Hget.
  split; intros r0 x H; unfold polka_at, commit_at in *;
    (destruct (Z.eq_dec r r0) as [<-|Hne];
     [|destruct (hv_put_get_other h r t vs r0 Hne) as [E1 E2]; rewrite ?E1, ?E2; exact H]).
  - unfold hv_put, hv_prevotes, hv_precommits in *. destruct (zlookup r (hv_sets h)) as [rv|] eqn:El; [|destruct (N.eqb t 1); discriminate]. cbn in *.
    rewrite zlookup_zupdate_eq. cbn. destruct (N.eqb t 1); cbn; [|exact H]. injection Hget as <-. apply Hkeep. exact H.
  - unfold hv_put, hv_prevotes, hv_precommits in *. destruct (zlookup r (hv_sets h)) as [rv|] eqn:El; [|destruct (N.eqb t 1); discriminate]. cbn in *.
    rewrite zlookup_zupdate_eq. cbn. destruct (N.eqb t 1); cbn; [exact H|]. injection Hget as <-. apply Hkeep. exact H.
Qed.

Definition peer_rounds (h : hvs) (peer : bytes) : list Z :=
  match VoteSet.lookup peer (hv_peers h) with Some l => l | None => [] end.

(* HeightVoteSet.AddVote opens a round it does not have on the peer's behalf, at most two per peer
   (peerCatchupRounds) *)
Lemma hv_add_vote_inv h v peer h' a c : hv_add_vote h v peer = Ok (h', a, c) ->
  (h' = h /\ a = false) \/
  exists h1 vs vs', (v_type v = 1%N \/ v_type v = 2%N) /\
    (h1 = h \/ exists h0, hv_get h (v_round v) (v_type v) = None /\ hv_add_round h (v_round v) = Ok h0 /\
                         (length (peer_rounds h peer) < 2)%nat /\
                         h1 = mkHvs (hv_height h0) (hv_vals h0) (hv_round h0) (hv_sets h0)
                                    (VoteSet.update peer (peer_rounds h peer ++ [v_round v]) (hv_peers h0))) /\
    hv_get h1 (v_round v) (v_type v) = Some vs /\ add_vote vs v = Ok (vs', a, c) /\
    h' = hv_put h1 (v_round v) (v_type v) vs'.
Proof.
  unfold hv_add_vote. destruct (negb _) eqn:Et; [intro E; injection E as <- <- _; auto|].
  assert (Ht : v_type v = 1%N \/ v_type v = 2%N).
  { apply negb_false_iff, orb_prop in Et. destruct Et as [Et|Et]; apply N.eqb_eq in Et; [left|right]; exact Et. }
  (* [go] of the model *)
  assert (Hgo : forall h1, match hv_get h1 (v_round v) (v_type v) with
                           | None => Panic 34
                           | Some vs => match add_vote vs v with
                                        | Ok (vs', added, code) => Ok (hv_put h1 (v_round v) (v_type v) vs', added, code)
                                        | Err e => Err e | Panic w => Panic w end
                           end = Ok (h', a, c) ->
            exists vs vs', hv_get h1 (v_round v) (v_type v) = Some vs /\ add_vote vs v = Ok (vs', a, c) /\
                           h' = hv_put h1 (v_round v) (v_type v) vs').
  { intro h1. destruct (hv_get h1 _ _) as [vs|]; [|discriminate].
    destruct (add_vote vs v) as [[[vs' ad] cd]| |] eqn:Ea; try discriminate. intro E. injection E as <- <- <-. eauto. }
  destruct (hv_get h (v_round v) (v_type v)) eqn:Eg.
  - intro E. right. destruct (Hgo h) as (vs & vs' & A & B & C); [rewrite Eg; exact E|]. exists h, vs, vs'. auto.
  - fold (peer_rounds h peer). destruct (Nat.ltb_spec (length (peer_rounds h peer)) 2) as [Hlt|_]; [|intro E; injection E as <- <- _; auto].
    destruct (hv_add_round h (v_round v)) as [h0| |] eqn:E0; try discriminate. intro E. right.
    destruct (Hgo _ E) as (vs & vs' & A & B & C).
    match type of A with hv_get ?h1 _ _ = _ => exists h1, vs, vs' end. split; [exact Ht|]. split; [|auto].
    right. exists h0. auto.
Qed.

Lemma hv_put_same h r t vs :
  hv_height (hv_put h r t vs) = hv_height h /\ hv_vals (hv_put h r t vs) = hv_vals h /\ hv_peers (hv_put h r t vs) = hv_peers h.
Proof. unfold hv_put. destruct (zlookup r (hv_sets h)); auto. Qed.
Lemma hv_put_height h r t vs : hv_height (hv_put h r t vs) = hv_height h.
Proof. apply hv_put_same. Qed.

Lemma hv_add_vote_le h v peer h' a c : hv_add_vote h v peer = Ok (h', a, c) -> hv_le h h' /\ hv_height h' = hv_height h.
Proof.
  intro E. apply hv_add_vote_inv in E as [[-> _]|(h1 & vs & vs' & _ & H1 & Eg & Ea & ->)]; [split; [apply hv_le_refl|reflexivity]|].
  assert (L1 : hv_le h h1 /\ hv_height h1 = hv_height h).
  { destruct H1 as [->|(h0 & _ & E0 & _ & ->)]; [split; [apply hv_le_refl|reflexivity]|]. exact (hv_add_round_le _ _ _ E0). }
  destruct L1 as [L1 Hh]. rewrite hv_put_height. split; [|exact Hh].
  eapply hv_le_trans; [exact L1|]. eapply hv_put_le; [exact Eg|]. intros b Hb. eapply add_vote_keeps_maj; eauto.
Qed.

Lemma hv_set_peer_le h r t peer b : hv_le h (hv_set_peer_maj23 h r t peer b).
Proof.
  unfold hv_set_peer_maj23. destruct (negb _); [apply hv_le_refl|].
  destruct (hv_get h r t) as [vs|] eqn:Eg; [|apply hv_le_refl].
  eapply hv_put_le; [exact Eg|]. intros b0 Hb. unfold set_peer_maj23. destruct (lookup peer (vs_peers vs)); exact Hb.
Qed.

Definition inv (n : node) : Prop :=
  match lblock n with
  | None => True
  | Some B => bk_hash B <> [] /\ lround n <= round n /\
              exists x, polka_at (votes n) (lround n) x /\ b_hash x = bk_hash B
  end.

Definition same_lock (B : blk) (n' : node) (lr : Z) : Prop :=
  exists B', lblock n' = Some B' /\ bk_hash B' = bk_hash B /\ lr <= lround n'.
Definition released (B : blk) (n' : node) (lr : Z) : Prop :=
  exists r x, lr < r /\ r <= round n' /\ polka_at (votes n') r x /\ hashes_to (Some B) (b_hash x) = false.
Definition L (n n' : node) : Prop :=
  match lblock n with
  | None => True
  | Some B => same_lock B n' (lround n) \/ released B n' (lround n)
  end.

Definition G (n n' : node) : Prop :=
  inv n -> inv n' /\ height n <= height n' /\
           (height n' = height n -> hv_le (votes n) (votes n') /\ L n n' /\ round n <= round n').

Lemma L_refl n : L n n.
Proof. unfold L. destruct (lblock n) as [B|] eqn:E; [|exact I]. left. exists B. repeat split; [exact E|lia]. Qed.
Lemma G_refl n : G n n.
Proof. intro H. split; [exact H|]. split; [lia|]. intros _. split; [apply hv_le_refl|]. split; [apply L_refl|lia]. Qed.

Lemma hashes_to_same B B' h : bk_hash B' = bk_hash B -> hashes_to (Some B') h = hashes_to (Some B) h.
Proof. intro E. unfold hashes_to. destruct h; [reflexivity|]. rewrite E. reflexivity. Qed.

Lemma G_trans a b c : G a b -> G b c -> G a c.
Proof.
  intros Gab Gbc Ia. destruct (Gab Ia) as (Ib & Hab & Sab). destruct (Gbc Ib) as (Ic & Hbc & Sbc).
  split; [exact Ic|]. split; [lia|]. intro Hh.
  assert (Hb : height b = height a) by lia. assert (Hc : height c = height b) by lia.
  destruct (Sab Hb) as (Lab1 & Lab2 & Rab). destruct (Sbc Hc) as (Lbc1 & Lbc2 & Rbc).
  split; [eapply hv_le_trans; eauto|]. split; [|lia].
  unfold L in *. destruct (lblock a) as [B|]; [|exact I].
  destruct Lab2 as [(B' & EB' & Hhash & Hlr)|(r & x & Hr & Hrr & Hp & Hh2)].
  - rewrite EB' in Lbc2. destruct Lbc2 as [(B2 & EB2 & Hhash2 & Hlr2)|(r & x & Hr & Hrr & Hp & Hh2)].
    + left. exists B2. repeat split; [exact EB2|congruence|lia].
    + right. exists r, x. repeat split; [lia|exact Hrr|exact Hp|]. rewrite <- (hashes_to_same B B') by exact Hhash. exact Hh2.
  - right. exists r, x. repeat split; [exact Hr|lia|apply Lbc1; exact Hp|exact Hh2].
Qed.

Definition sat (f : node -> M) : Prop := forall n n' o, f n = Ok (n', o) -> G n n'.

Lemma sat_emit x : sat (emit x). Proof. intros n n' o E. injection E as <- _. apply G_refl. Qed.
Lemma bind_ok (m : M) f n' o : m >>= f = Ok (n', o) ->
  exists n1 o1 o2, m = Ok (n1, o1) /\ f n1 = Ok (n', o2) /\ o = o1 ++ o2.
Proof.
  unfold bindM. destruct m as [[n1 o1]| |]; try discriminate. destruct (f n1) as [[n2 o2]| |] eqn:E; try discriminate.
  intro H. injection H as <- <-. eauto 6.
Qed.
Lemma sat_bind f g : sat f -> sat g -> sat (fun n => f n >>= g).
Proof.
  intros Hf Hg n n' o E. apply bind_ok in E as (n1 & o1 & o2 & E1 & E2 & _).
  eapply G_trans; [eapply Hf; exact E1|eapply Hg; exact E2].
Qed.

Definition frame (n n' : node) : Prop :=
  height n' = height n /\ votes n' = votes n /\ lblock n' = lblock n /\ lround n' = lround n /\ round n <= round n'.
Lemma frame_G n n' : frame n n' -> G n n'.
Proof.
  intros (Hh & Hv & Hl & Hr & Hrd) Hi. unfold inv, L in *. rewrite Hl, Hv, Hr.
  split; [destruct (lblock n); [|exact I]; destruct Hi as (A & B & C); repeat split; [exact A|lia|exact C]|].
  split; [lia|]. intros _. split; [apply hv_le_refl|]. split; [|exact Hrd].
  destruct (lblock n) as [B|] eqn:E; [|exact I]. left. exists B. repeat split; [exact Hl|lia].
Qed.
Lemma frame_refl n : frame n n. Proof. repeat split; lia. Qed.
Lemma frame_trans a b c : frame a b -> frame b c -> frame a c.
Proof. intros (A1 & A2 & A3 & A4 & A5) (B1 & B2 & B3 & B4 & B5). repeat split; try congruence; lia. Qed.
Lemma frame_set_step n r s : round n <= r -> frame n (set_step n r s). Proof. repeat split; cbn; lia. Qed.
Lemma frame_set_vals n v : frame n (set_vals n v). Proof. repeat split; cbn; lia. Qed.
Lemma frame_set_prop n p b ps : frame n (set_prop n p b ps). Proof. repeat split; cbn; lia. Qed.
Lemma frame_set_sg n s : frame n (set_sg n s). Proof. repeat split; cbn; lia. Qed.
Lemma frame_set_commit_round n r : frame n (set_commit_round n r). Proof. repeat split; cbn; lia. Qed.
Lemma frame_set_last_commit n lc : frame n (set_last_commit n lc). Proof. repeat split; cbn; lia. Qed.
Definition fsat (f : node -> M) : Prop := forall n n' o, f n = Ok (n', o) -> frame n n'.

(* the guard at the top of every enter function *)
Lemma guard_round n h r s : negb (height n =? h) || (r <? round n) || ((round n =? r) && s) = false -> round n <= r /\ height n = h.
Proof. intro H. apply orb_false_elim in H as [H _]. apply orb_false_elim in H as [H1 H2]. split; lia. Qed.

Lemma set_sg_self n : set_sg n (sg n) = n. Proof. destruct n; reflexivity. Qed.

Definition quiet_out (o : list out) : Prop :=
  forall x, In x o -> match x with OVote _ _ _ | OCommit _ _ => False | _ => True end.
Definition no_votes (o : list out) : Prop := forall x, In x o -> match x with OVote _ _ _ => False | _ => True end.
Lemma quiet_no_votes o : quiet_out o -> no_votes o.
Proof. intros H x Hx. specialize (H x Hx). destruct x; auto. Qed.
Lemma quiet_nil : quiet_out []. Proof. intros x []. Qed.
Lemma quiet_app a b : quiet_out a -> quiet_out b -> quiet_out (a ++ b).
Proof. intros Ha Hb x Hx. apply in_app_or in Hx as [Hx|Hx]; [apply Ha|apply Hb]; exact Hx. Qed.

Lemma sign_add_vote_inv t b n n' o : sign_add_vote t b n = Ok (n', o) ->
  (exists s, n' = set_sg n s) /\ (o = [] \/ o = [OVote t (round n) b]).
Proof.
  assert (Hn : exists s, n = set_sg n s) by (exists (sg n); symmetry; apply set_sg_self).
  unfold sign_add_vote. destruct (negb _); [intro E; injection E as <- <-; auto|].
  destruct (sign_check _ _ _ _ _); intro E; injection E as <- <-; eauto.
Qed.
Lemma fsat_sign_add_vote t b : fsat (sign_add_vote t b).
Proof. intros n n' o E. apply sign_add_vote_inv in E as [[s ->] _]. apply frame_set_sg. Qed.
Lemma sign_add_vote_shape t b n n' o : sign_add_vote t b n = Ok (n', o) -> o = [] \/ o = [OVote t (round n) b].
Proof. intro E. apply (sign_add_vote_inv _ _ _ _ _ E). Qed.
Lemma sign_add_vote_out t b n n' o x : sign_add_vote t b n = Ok (n', o) -> In x o -> x = OVote t (round n) b.
Proof. intros E Hin. destruct (sign_add_vote_shape _ _ _ _ _ E) as [->| ->]; [destruct Hin|destruct Hin as [<-|[]]; reflexivity]. Qed.

Lemma do_prevote_inv n n' o : do_prevote n = Ok (n', o) ->
  exists b, sign_add_vote 1 b n = Ok (n', o) /\
    match lblock n with
    | Some B => b = blk_bid B
    | None => b = nil_bid \/ exists pb, pblock n = Some pb /\ bk_valid pb = true /\ b = pparts_bid n pb
    end.
Proof.
  unfold do_prevote. destruct (lblock n) as [B|]; [eauto|].
  destruct (pblock n) as [pb|]; [destruct (bk_valid pb) eqn:Ev|]; eauto 8.
Qed.
Lemma fsat_do_prevote : fsat do_prevote.
Proof. intros n n' o E. apply do_prevote_inv in E as (b & E & _). exact (fsat_sign_add_vote _ _ _ _ _ E). Qed.

Lemma decide_proposal_inv n n' o : decide_proposal n = Ok (n', o) -> (exists s, n' = set_sg n s) /\ quiet_out o.
Proof.
  assert (Hn : exists s, n = set_sg n s) by (exists (sg n); symmetry; apply set_sg_self).
  unfold decide_proposal. destruct (negb _); [intro E; injection E as <- <-; auto using quiet_nil|].
  destruct (pol_info (votes n)) as [[polr pb]| |]; try discriminate.
  destruct (sign_check _ _ _ _ _); intro E; injection E as <- <-; (split; [eauto|]); intros x Hx;
    repeat (destruct Hx as [<-|Hx]; [exact I|]); destruct Hx.
Qed.
Lemma fsat_decide_proposal : fsat decide_proposal.
Proof. intros n n' o E. apply decide_proposal_inv in E as [[s ->] _]. apply frame_set_sg. Qed.

(* Names for pieces of Model/Node.v that several functions share or that are too long to reason
   about in one go.  [add_vote_cs_cases] finds the pieces of addVote in the model; the others are
   found by conversion. *)

(* the tail of enter_propose, of add_part, and of addVote on a prevote of the proposal's proof-of-lock
   round *)
Definition prevote_if_complete (h : Z) (n : node) : M :=
  match is_proposal_complete n with
  | Panic w => Panic w
  | Err e => Err e
  | Ok true => enter_prevote h (round n) n
  | Ok false => ret n
  end.

(* addVote's "First, unlock if prevotes is a valid POL" *)
Definition unlock_rule (n : node) (R : Z) : node :=
  match lblock n with
  | Some lb =>
    if (lround n <? R) && (R <=? round n) then
      match maj23 (hv_prevotes (votes n) R) with
      | Some b => if negb (hashes_to (lblock n) (b_hash b)) then set_lock n 0 None else n
      | None => n
      end
    else n
  | None => n
  end.

(* addVote after an added prevote, resp. precommit, of round R at the node's height h; n1 is the node
   with the vote in its sets *)
Definition on_prevote (h R : Z) (n1 : node) : M :=
  let n2 := unlock_rule n1 R in
  if (round n2 <=? R) && any23_open n2 (hv_prevotes (votes n1) R) then
    enter_new_round h R n2 >>= (fun n3 =>
      match maj23 (hv_prevotes (votes n3) R) with
      | Some _ => enter_precommit h R n3
      | None => enter_prevote h R n3 >>= enter_prevote_wait h R
      end)
  else
    match proposal n2 with
    | Some p => if (0 <=? p_polround p) && (p_polround p =? R) then prevote_if_complete h n2 else ret n2
    | None => ret n2
    end.

Definition on_precommit (c : cfg) (h R : Z) (n1 : node) : M :=
  match maj23 (hv_precommits (votes n1) R) with
  | Some b =>
    match b_hash b with
    | [] => enter_new_round_open h (R + 1) n1
    | _ =>
      enter_new_round h R n1 >>= enter_precommit h R >>= enter_commit c h R
      >>= (fun n4 =>
             if c_skip_commit c && (match hv_precommits (votes n1) R with Some vs => has_all vs | None => false end)
             then enter_new_round (height n4) 0 n4 else ret n4)
    end
  | None =>
    if (round n1 <=? R) && any23_open n1 (hv_precommits (votes n1) R) then
      enter_new_round h R n1 >>= enter_precommit h R >>= enter_precommit_wait h R
    else ret n1
  end.

Definition report (code : N) (n : node) : M := if N.eqb code 0 then ret n else emit (OErr (20 + code)) n.

Definition on_last_commit (c : cfg) (v : vote) (n : node) : M :=
  if negb ((step n =? 1) && N.eqb (v_type v) 2) then emit (OErr 10) n
  else match last_commit n with
  | None => emit (OErr 10) n
  | Some lc =>
    match add_vote lc v with
    | Panic w => Panic w
    | Err e => Err e
    | Ok (lc', added, code) =>
      let n1 := set_last_commit n (Some lc') in
      (if added && c_skip_commit c && has_all lc' then enter_new_round (height n1) 0 n1 else ret n1) >>= report code
    end
  end.

Lemma add_vote_cs_cases c v peer n n' o : add_vote_cs c v peer n = Ok (n', o) ->
  (v_height v + 1 = height n /\ on_last_commit c v n = Ok (n', o)) \/
  (v_height v = height n /\ exists hv added code, hv_add_vote (votes n) v peer = Ok (hv, added, code) /\
     (if negb added then ret (set_votes n hv)
      else if N.eqb (v_type v) 1 then on_prevote (height n) (v_round v) (set_votes n hv)
      else if N.eqb (v_type v) 2 then on_precommit c (height n) (v_round v) (set_votes n hv)
      else Panic 49) >>= report code = Ok (n', o)) \/
  (v_height v <> height n /\ n' = n /\ o = [OErr 10]).
Proof.
  unfold add_vote_cs. destruct (Z.eqb_spec (v_height v + 1) (height n)); [auto|].
  destruct (Z.eqb_spec (v_height v) (height n)); [|intro E; injection E as <- <-; auto].
  destruct (hv_add_vote (votes n) v peer) as [[[hv added] code]| |]; try discriminate. eauto 10.
Qed.

Lemma unlock_rule_cases n R :
  (unlock_rule n R = set_lock n 0 None /\
   exists lb b, lblock n = Some lb /\ lround n < R <= round n /\ polka_at (votes n) R b /\ hashes_to (Some lb) (b_hash b) = false) \/
  (unlock_rule n R = n /\
   forall lb b, lblock n = Some lb -> lround n < R <= round n -> polka_at (votes n) R b -> hashes_to (Some lb) (b_hash b) = true).
Proof.
  unfold unlock_rule, polka_at. destruct (lblock n) as [lb|]; [|right; split; [reflexivity|discriminate]].
  destruct (_ && _) eqn:Ec; [apply andb_prop in Ec as [E1 E2]|right; split; [reflexivity|intros; lia]].
  destruct (maj23 _) as [b|]; [|right; split; [reflexivity|discriminate]].
  destruct (hashes_to (Some lb) (b_hash b)) eqn:Eh; cbn [negb]; [right; split; [reflexivity|congruence]|].
  left. split; [reflexivity|]. exists lb, b. repeat split; auto; lia.
Qed.
Lemma unlock_rule_same n R :
  height (unlock_rule n R) = height n /\ votes (unlock_rule n R) = votes n /\ round (unlock_rule n R) = round n /\
  step (unlock_rule n R) = step n /\ sg (unlock_rule n R) = sg n /\ proposal (unlock_rule n R) = proposal n.
Proof. destruct (unlock_rule_cases n R) as [[-> _]|[-> _]]; auto 6. Qed.

(* enter_precommit's decision: the state [m] in which the precommit is signed and the block id [vb]
   it names, from the prevotes of round r.  The lock is taken here and nowhere else. *)
Inductive pc_choice (r : Z) (n : node) : node -> block_id -> Prop :=
| pc_no_polka : maj23 (hv_prevotes (votes n) r) = None -> pc_choice r n n nil_bid
| pc_nil x : polka_at (votes n) r x -> b_hash x = [] ->
    pc_choice r n (match lblock n with Some _ => set_lock n 0 None | None => n end) nil_bid
| pc_relock x B : polka_at (votes n) r x -> b_hash x <> [] -> lblock n = Some B -> bk_hash B = b_hash x ->
    pc_choice r n (set_lock n r (Some B)) x
| pc_lock x pb lb : polka_at (votes n) r x -> b_hash x <> [] -> hashes_to (lblock n) (b_hash x) = false ->
    pblock n = Some pb -> bk_hash pb = b_hash x -> bk_valid pb = true -> bk_hash lb = bk_hash pb ->
    pc_choice r n (set_lock n r (Some lb)) x
| pc_unknown x b ps : polka_at (votes n) r x -> b_hash x <> [] -> hashes_to (lblock n) (b_hash x) = false ->
    pc_choice r n (set_prop (set_lock n 0 None) (proposal n) b ps) nil_bid.

Lemma hashes_to_true B h : hashes_to (Some B) h = true -> bk_hash B = h.
Proof.
  unfold hashes_to. destruct h as [|x t]; [discriminate|]. intro H. apply bytes_eqb_eq in H. exact H.
Qed.

Lemma enter_precommit_open h r n n' o :
  negb (height n =? h) || (r <? round n) || ((round n =? r) && (6 <=? step n)) = false ->
  enter_precommit h r n = Ok (n', o) ->
  exists m vb n2, pc_choice r n m vb /\ sign_add_vote 2 vb m = Ok (n2, o) /\ n' = set_step n2 r 6.
Proof.
  unfold enter_precommit. intros -> E. apply bind_ok in E as (n2 & o1 & o2 & E1 & E2 & ->).
  injection E2 as <- <-. rewrite app_nil_r.
  assert (Hgo : forall m vb, pc_choice r n m vb -> sign_add_vote 2 vb m = Ok (n2, o1) ->
            exists m vb n3, pc_choice r n m vb /\ sign_add_vote 2 vb m = Ok (n3, o1) /\ set_step n2 r 6 = set_step n3 r 6) by eauto 7.
  revert E1. destruct (maj23 (hv_prevotes (votes n) r)) as [x|] eqn:Em; [|apply Hgo; constructor; exact Em].
  destruct (pol_info (votes n)) as [[polr polb]| |]; try discriminate. destruct (polr <? r); [discriminate|].
  destruct (b_hash x) as [|q qt] eqn:Eh; [apply Hgo; eapply pc_nil; eauto|].
  assert (Hne : b_hash x <> []) by (rewrite Eh; discriminate). rewrite <- Eh.
  destruct (hashes_to (lblock n) (b_hash x)) eqn:Hl.
  - destruct (lblock n) as [B|] eqn:El; [|unfold hashes_to in Hl; rewrite Eh in Hl; discriminate].
    apply Hgo. eapply pc_relock; eauto using hashes_to_true.
  - destruct (hashes_to (pblock n) (b_hash x)) eqn:Hp.
    + destruct (pblock n) as [pb|] eqn:Ep; [|discriminate]. destruct (bk_valid pb) eqn:Ev; [|discriminate]. cbn [negb].
      apply Hgo. eapply pc_lock; eauto using hashes_to_true. destruct (pparts n); reflexivity.
    + cbn zeta. cbn [proposal pparts set_lock]. destruct (has_header _ _ _).
      * intro E1. apply (Hgo (set_prop (set_lock n 0 None) (proposal n) (pblock n) (pparts n)) nil_bid); [|exact E1].
        eapply pc_unknown; eauto.
      * destruct (new_pset _ _) as [ps| |]; try discriminate. apply Hgo. eapply pc_unknown; eauto.
Qed.

Lemma enter_precommit_inv h r n n' o : enter_precommit h r n = Ok (n', o) ->
  (n' = n /\ o = []) \/
  (round n <= r /\ height n = h /\
   exists m vb n2, pc_choice r n m vb /\ sign_add_vote 2 vb m = Ok (n2, o) /\ n' = set_step n2 r 6).
Proof.
  destruct (negb (height n =? h) || (r <? round n) || ((round n =? r) && (6 <=? step n))) eqn:Eg.
  - unfold enter_precommit. rewrite Eg. intro E. injection E as <- <-. auto.
  - intro E. right. destruct (guard_round _ _ _ _ Eg). eauto using enter_precommit_open.
Qed.

Lemma pc_choice_same r n m vb : pc_choice r n m vb ->
  height m = height n /\ votes m = votes n /\ round m = round n /\ step m = step n /\ sg m = sg n.
Proof. destruct 1; try destruct (lblock n); cbn; auto 6. Qed.
Lemma pc_choice_lock r n m vb : pc_choice r n m vb ->
  (lblock m = lblock n /\ lround m = lround n) \/ lblock m = None \/ lround m = r.
Proof. destruct 1; try destruct (lblock n) eqn:El; cbn; auto. Qed.

Lemma finalize_commit_inv c h n n' o : finalize_commit c h n = Ok (n', o) ->
  (n' = n /\ o = []) \/
  exists b pb nv hv, height n = h /\ step n = 8 /\ commit_at (votes n) (commit_round n) b /\
    has_header (pparts n) (b_total b) (b_phash b) = true /\ pblock n = Some pb /\ bk_hash pb = b_hash b /\ bk_valid pb = true /\
    new_hvs (h + 1) (vals_of nv) = Ok hv /\
    n' = mkNode (h + 1) 0 1 nv nv None None None 0 None hv (-1) (hv_precommits (votes n) (commit_round n)) (priv n) (sg n) /\
    o = [OCommit h (bk_hash pb); OTimeout (h + 1) 0 1] /\ b_hash b <> [].
Proof.
  unfold finalize_commit. destruct (_ || _) eqn:Eg; [intro E; injection E as <- <-; auto|].
  apply orb_false_elim in Eg as [Eh Es]. apply negb_false_iff, Z.eqb_eq in Eh, Es.
  destruct (maj23 _) as [b|] eqn:Em; [|discriminate].
  destruct (has_header _ _ _) eqn:Ehh; [|discriminate]. destruct (hashes_to _ _) eqn:Eht; [|discriminate]. cbn [negb].
  destruct (pblock n) as [pb|]; [|discriminate]. destruct (bk_valid pb) eqn:Ev; [|discriminate]. cbn [negb].
  destruct (increment (st_vals n) 1) as [nv| |]; try discriminate.
  destruct (new_hvs (h + 1) (vals_of nv)) as [hv| |] eqn:En; try discriminate.
  intro E. injection E as <- <-. right. exists b, pb, nv, hv.
  assert (Hne : b_hash b <> []) by (intro E0; rewrite E0 in Eht; discriminate).
  apply hashes_to_true in Eht. auto 14.
Qed.
Lemma finalize_commit_next c h n n' o : finalize_commit c h n = Ok (n', o) ->
  (n' = n /\ o = []) \/
  (height n' = height n + 1 /\ lblock n' = None /\ sg n' = sg n /\
   exists hash, o = [OCommit (height n) hash; OTimeout (height n + 1) 0 1]).
Proof.
  intro E. apply finalize_commit_inv in E as [H|(b & pb & nv & hv & <- & _ & _ & _ & _ & _ & _ & _ & -> & -> & _)]; [auto|].
  right. cbn. eauto 6.
Qed.

Lemma try_finalize_commit_inv c h n n' o : try_finalize_commit c h n = Ok (n', o) ->
  (n' = n /\ o = []) \/ finalize_commit c h n = Ok (n', o).
Proof.
  unfold try_finalize_commit. destruct (negb _); [discriminate|].
  destruct (maj23 _) as [b|]; [|intro E; injection E as <- <-; auto].
  destruct (b_hash b); [intro E; injection E as <- <-; auto|].
  destruct (hashes_to _ _); [auto|intro E; injection E as <- <-; auto].
Qed.

Lemma enter_commit_inv c h cr n n' o : enter_commit c h cr n = Ok (n', o) ->
  (n' = n /\ o = [] /\ negb (height n =? h) || (8 <=? step n) = true) \/
  exists p b ps, try_finalize_commit c h (set_commit_round (set_step (set_prop n p b ps) (round n) 8) cr) = Ok (n', o).
Proof.
  unfold enter_commit. destruct (_ || _); [intro E; injection E as <- <-; auto|].
  destruct (maj23 _) as [x|]; [|discriminate]. cbn zeta. intro E. right.
  destruct (hashes_to (lblock n) (b_hash x)); cbn [pblock pparts proposal set_prop] in E;
    (destruct (hashes_to _ (b_hash x)); [eexists _, _, _; exact E|]);
    (destruct (has_header _ _ _); [eexists _, _, _; exact E|]);
    (destruct (new_pset _ _) as [ps| |]; try discriminate; eexists _, _, _; exact E).
Qed.

Lemma votes_G n hv : hv_le (votes n) hv -> G n (set_votes n hv).
Proof.
  intros Hle Hi. destruct Hle as [L1 L2]. split.
  - unfold inv in *. cbn. destruct (lblock n) as [B|]; [|exact I]. destruct Hi as (Hne & Hlr & x & Hp & Hx).
    split; [exact Hne|]. split; [exact Hlr|]. exists x. split; [apply L1; exact Hp|exact Hx].
  - split; [cbn; lia|]. intros _. split; [split; assumption|]. split; [|cbn; lia]. unfold L. cbn.
    destruct (lblock n) as [B|] eqn:E; [|exact I]. left. exists B. repeat split; try reflexivity; try assumption; lia.
Qed.

Lemma lock_G n n' r B x :
  height n' = height n -> votes n' = votes n -> lblock n' = Some B -> lround n' = r -> round n' = r -> round n <= r ->
  polka_at (votes n) r x -> b_hash x = bk_hash B -> bk_hash B <> [] ->
  (match lblock n with Some B0 => (bk_hash B0 = bk_hash B /\ lround n <= r) \/ (lround n < r /\ hashes_to (Some B0) (b_hash x) = false) | None => True end) ->
  G n n'.
Proof.
  intros Hh Hv Hl Hlr Hrd Hr Hp Hx Hne Hold Hi. split.
  - unfold inv. rewrite Hl, Hv, Hlr, Hrd. split; [exact Hne|]. split; [lia|]. exists x. split; assumption.
  - split; [lia|]. intros _. rewrite Hv. split; [apply hv_le_refl|]. split; [|lia]. unfold L.
    destruct (lblock n) as [B0|]; [|exact I].
    destruct Hold as [[Hh0 Hr0]|[Hr0 Hh0]].
    + left. exists B. repeat split; [exact Hl|congruence|lia].
    + right. exists r, x. repeat split; [exact Hr0|lia|rewrite Hv; exact Hp|exact Hh0].
Qed.

Lemma unlock_G n n' r x :
  height n' = height n -> votes n' = votes n -> lblock n' = None -> r <= round n' -> round n <= round n' ->
  polka_at (votes n) r x ->
  (match lblock n with Some B0 => lround n < r /\ hashes_to (Some B0) (b_hash x) = false | None => True end) ->
  G n n'.
Proof.
  intros Hh Hv Hl Hr Hrd Hp Hold Hi. split; [unfold inv; rewrite Hl; exact I|]. split; [lia|]. intros _.
  rewrite Hv. split; [apply hv_le_refl|]. split; [|exact Hrd].
  unfold L. destruct (lblock n) as [B0|]; [|exact I]. right. destruct Hold as [Hr0 Hh0].
  exists r, x. repeat split; [exact Hr0|exact Hr|rewrite Hv; exact Hp|exact Hh0].
Qed.

Lemma inv_lock_round n B r x : inv n -> lblock n = Some B -> polka_at (votes n) r x -> lround n = r ->
  b_hash x = bk_hash B.
Proof.
  intros Hi El Hp Hr. unfold inv in Hi. rewrite El in Hi. destruct Hi as (_ & _ & y & Hy & Hhy).
  subst r. unfold polka_at in *. congruence.
Qed.

Lemma lock_not_at n B0 r x : inv n -> lblock n = Some B0 -> polka_at (votes n) r x ->
  hashes_to (Some B0) (b_hash x) = false -> lround n <> r.
Proof.
  intros Hi El Hp Hh Heq. pose proof (inv_lock_round n B0 r x Hi El Hp Heq) as Hx.
  unfold inv in Hi. rewrite El in Hi. destruct Hi as (Hne & _).
  unfold hashes_to in Hh. rewrite Hx in Hh. destruct (bk_hash B0); [contradiction|].
  rewrite bytes_eqb_refl in Hh. discriminate.
Qed.

Lemma sat_enter_precommit h r : sat (enter_precommit h r).
Proof.
  intros n n' o E. apply enter_precommit_inv in E as [[-> _]|(Hr & _ & m & vb & n2 & Hc & Es & ->)]; [apply G_refl|].
  assert (S : height (set_step n2 r 6) = height m /\ votes (set_step n2 r 6) = votes m /\
              lblock (set_step n2 r 6) = lblock m /\ lround (set_step n2 r 6) = lround m /\ round (set_step n2 r 6) = r).
  { destruct (fsat_sign_add_vote _ _ _ _ _ Es) as (F1 & F2 & F3 & F4 & _). cbn. auto. }
  clear Es. destruct S as (A & B & C & D & F). intro Hi.
  assert (Hlr : match lblock n with Some _ => lround n <= round n | None => True end).
  { unfold inv in Hi. destruct (lblock n); [|exact I]. apply Hi. }
  assert (Hstrict : forall B0 x, lblock n = Some B0 -> polka_at (votes n) r x -> hashes_to (Some B0) (b_hash x) = false -> lround n < r).
  { intros B0 x El Hp Hh. pose proof (lock_not_at n B0 r x Hi El Hp Hh). rewrite El in Hlr. lia. }
  revert Hi. destruct Hc as [Em|x Hp Hx|x B0 Hp Hne El Eh|x pb lb Hp Hne Hl Ep Eh Ev Elb|x b ps Hp Hne Hl].
  - (* no polka *) apply frame_G. repeat split; try assumption; lia.
  - (* a polka for nil: unlock *) destruct (lblock n) as [B0|] eqn:El.
    + apply (unlock_G n _ r x); cbn in *; try assumption; try lia. rewrite El. rewrite Hx. split; [|reflexivity].
      apply (Hstrict B0 x eq_refl Hp). rewrite Hx. reflexivity.
    + apply frame_G. repeat split; try assumption; try congruence; lia.
  - (* for the locked block: relock *) apply (lock_G n _ r B0 x); cbn in *; try assumption; try lia; try congruence.
    rewrite El in *. left. split; [reflexivity|lia].
  - (* for the proposal block: lock it *) apply (lock_G n _ r lb x); cbn in *; try assumption; try lia; try congruence.
    destruct (lblock n) as [B0|] eqn:El; [|exact I]. right. split; [exact (Hstrict B0 x eq_refl Hp Hl)|exact Hl].
  - (* for a block the node does not have: unlock *) apply (unlock_G n _ r x); cbn in *; try assumption; try lia.
    destruct (lblock n) as [B0|] eqn:El; [|exact I]. split; [exact (Hstrict B0 x eq_refl Hp Hl)|exact Hl].
Qed.

Lemma sat_finalize_commit c h : sat (finalize_commit c h).
Proof.
  intros n n' o E. apply finalize_commit_next in E as [[-> _]|(Hh & Hl & _)]; [apply G_refl|].
  intros _. split; [unfold inv; rewrite Hl; exact I|]. split; [lia|intro; lia].
Qed.

Lemma unlock_rule_G n R : G n (unlock_rule n R).
Proof.
  destruct (unlock_rule_cases n R) as [[-> (lb & b & El & Hr & Hp & Hh)]|[-> _]]; [|apply G_refl].
  apply (unlock_G n _ R b); cbn; try reflexivity; try lia; [exact Hp|]. rewrite El. split; [lia|exact Hh].
Qed.

Theorem prevote_rule n n' o x : do_prevote n = Ok (n', o) -> In x o ->
  exists b, x = OVote 1 (round n) b /\
    match lblock n with
    | Some B => b = blk_bid B
    | None => b = nil_bid \/ exists pb, pblock n = Some pb /\ bk_valid pb = true /\ b = pparts_bid n pb
    end.
Proof.
  intros E Hin. apply do_prevote_inv in E as (b & E & Hb). exists b. split; [exact (sign_add_vote_out _ _ _ _ _ _ E Hin)|exact Hb].
Qed.

Theorem precommit_rule h r n n' o t r' b : enter_precommit h r n = Ok (n', o) -> In (OVote t r' b) o ->
  t = 2%N /\ r' = round n /\
  (b_hash b <> [] -> polka_at (votes n) r b /\ exists B, lblock n' = Some B /\ bk_hash B = b_hash b /\ lround n' = r).
Proof.
  intros E Hin. apply enter_precommit_inv in E as [[_ ->]|(_ & _ & m & vb & n2 & Hc & Es & ->)]; [destruct Hin|].
  destruct (sign_add_vote_shape _ _ _ _ _ Es) as [->| ->]; [destruct Hin|]. destruct Hin as [Hin|[]].
  destruct (pc_choice_same _ _ _ _ Hc) as (_ & _ & Hrm & _). injection Hin as <- <- <-.
  split; [reflexivity|]. split; [exact Hrm|]. intro Hb.
  destruct (fsat_sign_add_vote _ _ _ _ _ Es) as (_ & _ & Fl & Fr & _). cbn [lblock lround set_step]. rewrite Fl, Fr.
  destruct Hc as [Em|x Hp Hx|x B0 Hp Hne El Eh|x pb lb Hp Hne Hl Ep Eh Ev Elb|x b ps Hp Hne Hl];
    try (exfalso; apply Hb; reflexivity); (split; [exact Hp|]); eexists; cbn; repeat split; congruence.
Qed.

Theorem commit_rule c h n n' o hc hash : finalize_commit c h n = Ok (n', o) -> In (OCommit hc hash) o ->
  hc = height n /\ exists b pb, commit_at (votes n) (commit_round n) b /\ b_hash b = hash /\
     pblock n = Some pb /\ bk_hash pb = hash /\ bk_valid pb = true /\ has_header (pparts n) (b_total b) (b_phash b) = true
     /\ height n' = height n + 1.
Proof.
  intros E Hin. apply finalize_commit_inv in E as [[_ ->]|(b & pb & nv & hv & Hh & _ & Hc & Hhd & Ep & Eh & Ev & _ & -> & -> & _)]; [destruct Hin|].
  destruct Hin as [Hin|[Hin|[]]]; [|discriminate]. injection Hin as <- <-.
  split; [auto|]. exists b, pb. cbn. repeat split; auto. lia.
Qed.

Theorem proposal_rule n n' o r polr lb : decide_proposal n = Ok (n', o) -> In (OProposal r polr lb) o ->
  r = round n /\ lb = lblock n /\ (exists b, pol_info (votes n) = Ok (polr, b)).
Proof.
  unfold decide_proposal. destruct (negb _); [intro E; injection E as _ <-; intros []|].
  destruct (pol_info (votes n)) as [[p b]| |] eqn:Ep; try discriminate.
  destruct (sign_check _ _ _ _ _); intro E; injection E as _ <-; cbn; intro Hin;
    repeat (destruct Hin as [Hin|Hin]); try discriminate; try contradiction.
  injection Hin as <- <- <-. split; [reflexivity|]. split; [reflexivity|]. exists b. reflexivity.
Qed.

Fixpoint run (c : cfg) (ins : list input) (n : node) : res node :=
  match ins with
  | [] => Ok n
  | i :: t => match handle c i n with
              | Ok (n', _) => run c t n'
              | Err e => Err e
              | Panic w => Panic w
              end
  end.

Lemma run_app c a : forall b n, run c (a ++ b) n = match run c a n with Ok n1 => run c b n1 | Err e => Err e | Panic w => Panic w end.
Proof.
  induction a as [|i t IH]; intros b n; cbn [run app]; [reflexivity|].
  destruct (handle c i n) as [[n1 o]| |]; [apply IH|reflexivity|reflexivity].
Qed.

Definition hrs_le (h1 r1 s1 h2 r2 s2 : Z) : Prop := hrs_lt h2 r2 s2 h1 r1 s1 = false.

Lemma sign_check_fresh s h r st w :
  hrs_lt (sg_h s) (sg_r s) (sg_s s) h r st = match sign_check s h r st w with SFresh => true | _ => false end.
Proof.
  unfold sign_check. destruct (hrs_lt h r st _ _ _) eqn:E1; [unfold hrs_lt in *; lia|].
  destruct (_ && _ && _) eqn:E2; [|unfold hrs_lt in *; lia].
  destruct w, (sg_what s); try destruct (what_eqb _ _); unfold hrs_lt in *; lia.
Qed.
Lemma sign_check_same s h r st w : sign_check s h r st w = SSame ->
  sg_h s = h /\ sg_r s = r /\ sg_s s = st /\ exists a b, w = Some a /\ sg_what s = Some b /\ what_eqb a b = true.
Proof.
  unfold sign_check. destruct (hrs_lt _ _ _ _ _ _); [discriminate|]. destruct (_ && _ && _) eqn:E; [|discriminate].
  destruct w as [a|], (sg_what s) as [b|]; try discriminate. destruct (what_eqb a b) eqn:Eq; [|discriminate].
  intros _. repeat split; try lia. eauto.
Qed.

Theorem sign_add_vote_signer t b n n' o :
  sign_add_vote t b n = Ok (n', o) ->
  let st := if N.eqb t 1 then 2 else 3 in
  hrs_le (sg_h (sg n)) (sg_r (sg n)) (sg_s (sg n)) (sg_h (sg n')) (sg_r (sg n')) (sg_s (sg n')) /\
  (forall x, In x o -> x = OVote t (round n) b /\
     (hrs_lt (sg_h (sg n)) (sg_r (sg n)) (sg_s (sg n)) (height n) (round n) st = true \/
      (sg_h (sg n) = height n /\ sg_r (sg n) = round n /\ sg_s (sg n) = st /\ exists w, sg_what (sg n) = Some w /\ what_eqb (t, b) w = true))).
Proof.
  unfold sign_add_vote. cbn zeta. unfold hrs_le. set (st := if N.eqb t 1 then 2 else 3).
  assert (Hrefl : forall a b0 c0, hrs_lt a b0 c0 a b0 c0 = false) by (intros; unfold hrs_lt; lia).
  destruct (negb _); [intro E; injection E as <- <-; split; [apply Hrefl|intros x []]|].
  pose proof (sign_check_fresh (sg n) (height n) (round n) st (Some (t, b))) as Hf.
  destruct (sign_check _ _ _ _ _) eqn:Ec; intro E; injection E as <- <-.
  - split; [cbn; unfold hrs_lt in *; lia|]. intros x [<-|[]]. auto.
  - split; [apply Hrefl|]. intros x [<-|[]]. split; [reflexivity|]. right.
    destruct (sign_check_same _ _ _ _ _ Ec) as (A & B & C & a & w & Ea & Ew & Eq). injection Ea as <-. eauto 8.
  - split; [apply Hrefl|intros x []].
  - split; [apply Hrefl|intros x []].
Qed.

Lemma enter_propose_lands h r n n' o : enter_propose h r n = Ok (n', o) ->
  negb (height n =? h) || (r <? round n) || ((round n =? r) && (3 <=? step n)) = false ->
  In (OTimeout h r 3) o /\ 3 <= step n' <= 4 /\ round n' = r.
Proof.
  unfold enter_propose. intros E Eg. rewrite Eg in E.
  apply bind_ok in E as (n3 & o1 & o2 & E1 & E2 & ->).
  apply bind_ok in E1 as (n1 & oa & ob & Ea & Eb & ->). injection Ea as <- <-.
  split; [apply in_or_app; left; cbn; auto|].
  destruct (is_proposal_complete (set_step n3 r 3)) as [[|]| |]; try discriminate.
  - unfold enter_prevote in E2. cbn [height round step set_step] in E2.
    destruct (_ || _) eqn:Eg2; [injection E2 as <- _; cbn; lia|].
    apply bind_ok in E2 as (n4 & oc & od & Ec & Ed & _). injection Ed as <- _. cbn. lia.
  - injection E2 as <- _. cbn. lia.
Qed.
Theorem enter_propose_schedules h r n n' o : enter_propose h r n = Ok (n', o) ->
  negb (height n =? h) || (r <? round n) || ((round n =? r) && (3 <=? step n)) = false ->
  In (OTimeout h r 3) o /\ 3 <= step n' /\ round n' = r.
Proof. intros E Eg. destruct (enter_propose_lands _ _ _ _ _ E Eg) as (A & B & C). auto with zarith. Qed.
Theorem enter_prevote_wait_schedules h r n n' o : enter_prevote_wait h r n = Ok (n', o) ->
  negb (height n =? h) || (r <? round n) || ((round n =? r) && (5 <=? step n)) = false ->
  In (OTimeout h r 5) o /\ step n' = 5 /\ round n' = r.
Proof.
  unfold enter_prevote_wait. intros E Eg. rewrite Eg in E. destruct (negb _); [discriminate|].
  apply bind_ok in E as (n1 & o1 & o2 & E1 & E2 & ->). injection E1 as <- <-. injection E2 as <- <-. cbn. auto.
Qed.
Theorem enter_precommit_wait_schedules h r n n' o : enter_precommit_wait h r n = Ok (n', o) ->
  negb (height n =? h) || (r <? round n) || ((round n =? r) && (7 <=? step n)) = false ->
  In (OTimeout h r 7) o /\ step n' = 7 /\ round n' = r.
Proof.
  unfold enter_precommit_wait. intros E Eg. rewrite Eg in E. destruct (negb _); [discriminate|].
  apply bind_ok in E as (n1 & o1 & o2 & E1 & E2 & ->). injection E1 as <- <-. injection E2 as <- <-. cbn. auto.
Qed.
Theorem commit_schedules_next_height c h n n' o : finalize_commit c h n = Ok (n', o) -> height n' <> height n ->
  In (OTimeout (height n') 0 1) o /\ step n' = 1 /\ round n' = 0.
Proof.
  intros E Hne. apply finalize_commit_inv in E as [[-> _]|(b & pb & nv & hv & _ & _ & _ & _ & _ & _ & _ & _ & -> & -> & _)]; [contradiction|].
  cbn. auto.
Qed.

