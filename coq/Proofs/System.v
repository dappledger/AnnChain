(* A system of honest validator nodes (each the Model.Node state machine, driven by its own inputs)
   and Byzantine validators, over one height.  A step lets one honest node handle an input, record a
   peer's claim of a +2/3 majority, or crash and restart from its log.  Signatures are idealised by
   an assumption on the network ([admissible]): a vote that verifies under an honest validator's key
   and is delivered to a node was emitted by that validator's node.  Nothing else is assumed of the
   network: any order, loss, duplication and delay, any Byzantine vote at any time.

   The global trace records the distinct prevotes/precommits so far, in order: an honest validator's
   when its node signs it, a Byzantine validator's when it is first delivered.  Every reachable
   trace satisfies the local forms of the rules R0-R3 of Proofs/Protocol.v ([sstep_SysInv]), so
   that two commits of one height are for the same block hash ([system_agreement]).  [exec] is the
   step relation as a function, for the evaluated scenario of Props/C01.v and the "sysrun" engine
   (Corr/SystemCorr.v). *)
From Coq Require Import List NArith ZArith Lia Bool Arith ZifyBool.
From AnnVerif Require Import Base.Res Base.Bytes Model.VoteSet Model.ValSet Model.Node
 Proofs.PowerSum Proofs.VoteSetProofs Proofs.NodeProofs Proofs.NodeSteps Proofs.Backed Proofs.NodeBacked
 Proofs.Emit Proofs.SgWalk Proofs.CommitWalk Proofs.SignerDom.
Require AnnVerif.Proofs.Protocol.
Import ListNotations.
Open Scope Z_scope.

Record gv := mkGv { g_idx : nat; g_round : Z; g_type : N; g_bid : block_id }.
Definition gv_eqb (a b : gv) : bool :=
  Nat.eqb (g_idx a) (g_idx b) && Z.eqb (g_round a) (g_round b) && N.eqb (g_type a) (g_type b) && bid_eqb (g_bid a) (g_bid b).
Lemma gv_eqb_eq a b : gv_eqb a b = true <-> a = b.
Proof.
  destruct a as [i r t x], b as [i' r' t' x']. unfold gv_eqb. cbn.
  rewrite !andb_true_iff, Nat.eqb_eq, Z.eqb_eq, N.eqb_eq, bid_eqb_eq. split; [intros [[[-> ->] ->] ->]; reflexivity|intro E; injection E; auto].
Qed.
Lemma existsb_eq_In {A} (f : A -> bool) (e : A) l : (forall x, f x = true <-> x = e) -> existsb f l = true <-> In e l.
Proof.
  intro Hf. rewrite existsb_exists. split.
  - intros (x & Hx & E). apply Hf in E. subst x. exact Hx.
  - intro H. exists e. split; [exact H|]. apply Hf. reflexivity.
Qed.
Lemma gv_mem e G : existsb (gv_eqb e) G = true <-> In e G.
Proof. apply existsb_eq_In. intro x. rewrite gv_eqb_eq. split; intro H; symmetry; exact H. Qed.

Definition typ12 (t : N) : bool := N.eqb t 1 || N.eqb t 2.

Definition add_new (e : gv) (G : list gv) : list gv := if existsb (gv_eqb e) G then G else G ++ [e].
Lemma add_new_cases e G : In e G /\ add_new e G = G \/ ~ In e G /\ add_new e G = G ++ [e].
Proof.
  unfold add_new. rewrite <- gv_mem. destruct (existsb (gv_eqb e) G); [left|right]; (split; [|reflexivity]).
  - reflexivity.
  - discriminate.
Qed.
Lemma in_add_new x e G : In x (add_new e G) <-> In x G \/ x = e.
Proof.
  destruct (add_new_cases e G) as [[H ->]|[_ ->]].
  - split; [auto|]. intros [A| ->]; assumption.
  - rewrite in_app_iff. cbn. intuition.
Qed.

(* G' is G with more votes, each of them satisfying P *)
Definition grows (P : gv -> Prop) (G G' : list gv) : Prop := incl G G' /\ forall e, In e G' -> In e G \/ P e.
Lemma grows_refl P G : grows P G G.
Proof. split; [apply incl_refl|auto]. Qed.
Lemma grows_trans P G1 G2 G3 : grows P G1 G2 -> grows P G2 G3 -> grows P G1 G3.
Proof.
  intros [A1 B1] [A2 B2]. split; [eapply incl_tran; eassumption|].
  intros e He. destruct (B2 e He) as [H|H]; [apply B1; exact H|right; exact H].
Qed.
Lemma grows_add (P : gv -> Prop) e G : P e -> grows P G (add_new e G).
Proof.
  intro He. split.
  - intros x Hx. apply in_add_new. left. exact Hx.
  - intros x Hx. apply in_add_new in Hx as [Hx| ->]; [left; exact Hx|right; exact He].
Qed.

Definition rec_out (i : nat) (x : out) (G : list gv) : list gv :=
  match x with OVote t r b => if typ12 t then add_new (mkGv i r t b) G else G | _ => G end.
Fixpoint emit_all (i : nat) (o : list out) (G : list gv) : list gv :=
  match o with [] => G | x :: t => emit_all i t (rec_out i x G) end.

Lemma rec_out_grows i x G : grows (fun e => g_idx e = i) G (rec_out i x G).
Proof.
  destruct x as [t r b| | | | |]; cbn [rec_out]; try apply grows_refl.
  destruct (typ12 t); [apply grows_add; reflexivity|apply grows_refl].
Qed.
Lemma emit_all_grows i o : forall G, grows (fun e => g_idx e = i) G (emit_all i o G).
Proof.
  induction o as [|x o IH]; intro G; cbn [emit_all]; [apply grows_refl|].
  eapply grows_trans; [apply rec_out_grows|apply IH].
Qed.

Definition gv_of (v : vote) : gv := mkGv (Z.to_nat (v_index v)) (v_round v) (v_type v) (v_bid v).

Definition votedG (G : list gv) (r : Z) (t : N) (b : block_id) (idx : nat) : bool :=
  existsb (fun e => Nat.eqb (g_idx e) idx && Z.eqb (g_round e) r && N.eqb (g_type e) t && bid_eqb (g_bid e) b) G.
Lemma votedG_iff G r t b idx : votedG G r t b idx = true <-> In (mkGv idx r t b) G.
Proof. apply (existsb_eq_In (fun e => gv_eqb e (mkGv idx r t b))). intro e. apply gv_eqb_eq. Qed.
Lemma votedG_incl G G' r t b idx : incl G G' -> votedG G r t b idx = true -> votedG G' r t b idx = true.
Proof. intros Hi. rewrite !votedG_iff. apply Hi. Qed.

Lemma valid_b_rt vals h r t v : valid_b vals h r t v = true -> v_round v = r /\ v_type v = t.
Proof. unfold valid_b. rewrite !andb_true_iff, !Z.eqb_eq, N.eqb_eq. tauto. Qed.

Lemma hrs_chain a1 a2 a3 h r0 s0 r s :
  hrs_lt a1 a2 a3 h r0 s0 = false -> hrs_lt a1 a2 a3 h r s = true -> hrs_lt h r0 s0 h r s = true.
Proof. unfold hrs_lt. lia. Qed.
Lemma hrs_chain2 a1 a2 a3 h r0 s0 r s :
  hrs_lt a1 a2 a3 h r0 s0 = false -> hrs_lt a1 a2 a3 h r s = true -> hrs_lt h r s h r0 s0 = false.
Proof. unfold hrs_lt. lia. Qed.
Lemma hrs_irrefl h r s : hrs_lt h r s h r s = false.
Proof. unfold hrs_lt. lia. Qed.

Lemma hv_set_peer_height h r t peer b : hv_height (hv_set_peer_maj23 h r t peer b) = hv_height h.
Proof.
  unfold hv_set_peer_maj23. destruct (negb _); [reflexivity|].
  destruct (hv_get _ _ _); [|reflexivity]. unfold hv_put. destruct (zlookup _ _); reflexivity.
Qed.

Section System.
Variable VS : list validator.
Hypothesis Hbounded : bounded VS.
Variable h0 : Z.
Variable c : cfg.
Hypothesis Hskip : c_skip_commit c = false.
Variable byz : nat -> bool.

Definition vb (v : vote) : bool := valid_b VS h0 (v_round v) (v_type v) v.
Definition vidx (v : vote) : nat := Z.to_nat (v_index v).

Definition deliver_tr (inp : input) (G : list gv) : list gv :=
  match inp with
  | IVote v _ => if vb v && typ12 (v_type v) && byz (vidx v) then add_new (gv_of v) G else G
  | _ => G
  end.
(* the idealisation of signatures *)
Definition admissible (inp : input) (G : list gv) : Prop :=
  match inp with
  | IVote v _ => vb v = true -> typ12 (v_type v) = true -> byz (vidx v) = false -> In (gv_of v) G
  | _ => True
  end.

(* the valid votes delivered to a node are in the trace: what [admissible] buys *)
Definition Bsub (off : list vote) (G : list gv) : Prop :=
  forall v, In v off -> vb v = true -> typ12 (v_type v) = true -> In (gv_of v) G.
Lemma Bsub_incl off G G' : incl G G' -> Bsub off G -> Bsub off G'.
Proof. intros Hi H v Hv A B. apply Hi. apply H; assumption. Qed.

Lemma voted_for_G off G r t b idx : Bsub off G -> typ12 t = true ->
  voted_for VS h0 r t off b idx = true -> votedG G r t b idx = true.
Proof.
  intros HB Ht. unfold voted_for. rewrite votedG_iff, existsb_exists. intros (v & Hv & H).
  apply andb_prop in H as [H Hb]. apply andb_prop in H as [Hval Hi].
  destruct (valid_b_rt _ _ _ _ _ Hval) as [Er Et]. apply Nat.eqb_eq in Hi. apply bid_eqb_eq in Hb.
  subst r t idx b. exact (HB v Hv Hval Ht).
Qed.

Lemma Qr_mono P Q : (forall i, P i = true -> Q i = true) -> Qr VS P -> Qr VS Q.
Proof.
  intros H. unfold Qr, pow_of. intro A. eapply Z.lt_le_trans; [exact A|]. apply pow_from_mono; [apply Hbounded|]. intros i _. apply H.
Qed.
Lemma Qr_G off G r t b : Bsub off G -> typ12 t = true -> Qr VS (voted_for VS h0 r t off b) -> Qr VS (votedG G r t b).
Proof. intros HB Ht. apply Qr_mono. intro j. apply voted_for_G; assumption. Qed.

(* the local rules, on the model's own terms *)
Definition Loc (pre : list gv) (e : gv) : Prop :=
  typ12 (g_type e) = true /\
  (forall e0, In e0 pre -> g_idx e0 = g_idx e ->
     hrs_lt h0 (g_round e0) (st_of (g_type e0)) h0 (g_round e) (st_of (g_type e)) = true) /\
  (g_type e = 2%N -> b_hash (g_bid e) <> [] -> Qr VS (votedG pre (g_round e) 1%N (g_bid e))) /\
  (g_type e = 1%N -> forall e0, In e0 pre -> g_idx e0 = g_idx e -> g_type e0 = 2%N -> b_hash (g_bid e0) <> [] ->
     g_round e0 < g_round e -> b_hash (g_bid e) <> b_hash (g_bid e0) ->
     exists r' x', g_round e0 < r' <= g_round e /\ b_hash x' <> b_hash (g_bid e0) /\ Qr VS (votedG pre r' 1%N x')).

Definition Rules (G : list gv) : Prop :=
  forall pre e post, G = pre ++ e :: post -> byz (g_idx e) = false -> Loc pre e.

Lemma Rules_nil : Rules []. Proof. intros pre e post E. destruct pre; discriminate. Qed.
Lemma Rules_typ G e : Rules G -> In e G -> byz (g_idx e) = false -> typ12 (g_type e) = true.
Proof. intros HR Hin Hb. apply in_split in Hin as (l1 & l2 & ->). apply (HR l1 e l2 eq_refl Hb). Qed.
Lemma Rules_snoc G e : Rules G -> (byz (g_idx e) = false -> Loc G e) -> Rules (G ++ [e]).
Proof.
  intros HR He pre e1 post Heq Hh. destruct post as [|a q _] using rev_ind.
  - apply app_inj_tail in Heq as [<- <-]. exact (He Hh).
  - rewrite app_comm_cons, app_assoc in Heq. apply app_inj_tail in Heq as [EG _]. exact (HR pre e1 q EG Hh).
Qed.

Lemma add_new_Rules G e : Rules G -> (~ In e G -> byz (g_idx e) = false -> Loc G e) -> Rules (add_new e G).
Proof.
  intros HR He. destruct (add_new_cases e G) as [[_ ->]|[H ->]]; [exact HR|].
  apply Rules_snoc; [exact HR|exact (He H)].
Qed.

Definition Csub (i : nat) (G : list gv) (pcs : list (Z * block_id)) : Prop :=
  forall r b, In (mkGv i r 2%N b) G -> b_hash b <> [] -> In (r, b) pcs.
Lemma Csub_more i G pcs extra : Csub i G pcs -> Csub i G (extra ++ pcs).
Proof. intros H r b A B. apply in_or_app. right. apply H; assumption. Qed.
Definition SInv (i : nat) (s : signer) (G : list gv) : Prop :=
  (forall e, In e G -> g_idx e = i -> hrs_lt (sg_h s) (sg_r s) (sg_s s) h0 (g_round e) (st_of (g_type e)) = false) /\
  (sg_h s = h0 -> forall w, sg_what s = Some w -> typ12 (fst w) = true -> In (mkGv i (sg_r s) (fst w) (snd w)) G).

(* what node i's list of own precommits and its signer record say of validator i's votes in the
   trace; the last two parts of [NI] below *)
Definition Own (i : nat) (pcs : list (Z * block_id)) (s : signer) (G : list gv) : Prop := Csub i G pcs /\ SInv i s G.

Lemma Own_other i pcs s P G G' : grows P G G' -> (forall e, P e -> g_idx e <> i) -> Own i pcs s G -> Own i pcs s G'.
Proof.
  intros [Hi Hnew] HP [HC [A B]].
  assert (own : forall e, In e G' -> g_idx e = i -> In e G).
  { intros e He Hidx. destruct (Hnew e He) as [H|H]; [exact H|]. destruct (HP e H Hidx). }
  split; [|split].
  - intros r b Hg Hb. apply HC; [apply (own _ Hg eq_refl)|exact Hb].
  - intros e He Hidx. apply A; [apply (own e He Hidx)|exact Hidx].
  - intros E w Ew Ht. apply Hi. apply B; assumption.
Qed.

Lemma SInv_move i s G r st w G' : SInv i s G -> hrs_lt (sg_h s) (sg_r s) (sg_s s) h0 r st = true ->
  (forall e, In e G' -> In e G \/ g_round e = r /\ st_of (g_type e) = st) ->
  (forall x, w = Some x -> typ12 (fst x) = true -> In (mkGv i r (fst x) (snd x)) G') ->
  SInv i (mkSg h0 r st w) G'.
Proof.
  intros [D _] Hlt Hsub Hin. split; cbn.
  - intros e He Hidx. destruct (Hsub e He) as [HG|[-> ->]]; [|apply hrs_irrefl].
    eapply hrs_chain2; [apply D; assumption|exact Hlt].
  - intros _ x Ex. apply Hin. exact Ex.
Qed.

(* a vote the signer accepts as new obeys the local rules: its position by [SInv], its quorums by
   [good] (over what was delivered to the node and what it precommitted) through [Bsub] and [Csub] *)
Lemma Loc_fresh i off pcs s G t r b : typ12 t = true -> hrs_lt (sg_h s) (sg_r s) (sg_s s) h0 r (st_of t) = true ->
  good VS h0 off pcs (OVote t r b) -> Bsub off G -> Own i pcs s G -> Loc G (mkGv i r t b).
Proof.
  intros Et Hlt Hgood HB [HC [D _]]. split; [exact Et|]. split; [|split]; cbn.
  - intros e0 He0 Hidx. eapply hrs_chain; [apply D; assumption|exact Hlt].
  - intros -> Hb. eapply Qr_G; [exact HB|reflexivity|apply Hgood; exact Hb].
  - intros -> e0 He0 Hidx Ht0 Hb0 Hlt0 Hne.
    destruct e0 as [i0 r0 t0 b0]. cbn in *. subst i0 t0.
    destruct (Hgood r0 b0 (HC r0 b0 He0 Hb0) Hlt0 Hne) as (r' & x' & Hr' & Hx' & HQ).
    exists r', x'. split; [exact Hr'|]. split; [exact Hx'|]. eapply Qr_G; [exact HB|reflexivity|exact HQ].
Qed.

Lemma fresh_vote i off pcs s G t r b : hrs_lt (sg_h s) (sg_r s) (sg_s s) h0 r (st_of t) = true ->
  good VS h0 off pcs (OVote t r b) -> Rules G -> Bsub off G -> Own i pcs s G ->
  Rules (rec_out i (OVote t r b) G) /\
  Own i (pc_of (OVote t r b) ++ pcs) (mkSg h0 r (st_of t) (Some (t, b))) (rec_out i (OVote t r b) G).
Proof.
  intros Hlt Hgood HR HB HO. pose proof HO as [HC HS]. cbn [rec_out]. destruct (typ12 t) eqn:Et.
  - split; [|split].
    + apply add_new_Rules; [exact HR|]. intros _ _. apply (Loc_fresh i off pcs s); assumption.
    + intros r1 b1 Hin Hb1. apply in_or_app. apply in_add_new in Hin as [Hin|Hin]; [right; apply HC; assumption|left].
      injection Hin as -> <- ->. cbn. destruct (b_hash b); [contradiction|left; reflexivity].
    + apply (SInv_move i s G r (st_of t) (Some (t, b)) _ HS Hlt).
      * intros x Hx. apply in_add_new in Hx as [Hx| ->]; [left; exact Hx|right; split; reflexivity].
      * intros x Ex _. injection Ex as <-. apply in_add_new. right. reflexivity.
  - split; [exact HR|]. split; [apply Csub_more; exact HC|].
    apply (SInv_move i s G r (st_of t) (Some (t, b)) G HS Hlt); [auto|].
    intros x Ex Ht. injection Ex as <-. cbn in Ht. congruence.
Qed.

Lemma same_vote i s G t b w : SInv i s G -> sg_h s = h0 -> sg_what s = Some w -> what_eqb (t, b) w = true ->
  rec_out i (OVote t (sg_r s) b) G = G.
Proof.
  intros [_ E] Hh Ew Eq. cbn [rec_out]. destruct (typ12 t) eqn:Et; [|reflexivity].
  destruct (add_new_cases (mkGv i (sg_r s) t b) G) as [[_ EG]|[N _]]; [exact EG|]. destruct N.
  apply andb_prop in Eq as [Q1 Q2]. apply N.eqb_eq in Q1. apply bid_eqb_eq in Q2. cbn in Q1, Q2.
  rewrite Q1, Q2. apply (E Hh w Ew). rewrite <- Q1. exact Et.
Qed.

Lemma emit_step i off s o s' : sgrel h0 s o s' -> forall pcs G, goods VS h0 off pcs o ->
  Rules G -> Bsub off G -> Own i pcs s G ->
  Rules (emit_all i o G) /\ Own i (pcs_after o pcs) s' (emit_all i o G).
Proof.
  intro H. induction H as [s|s x o s' Hx H IH|s r o s' Hlt H IH|s t r b o s' Hlt H IH|s t r b o s' Hh Hr Hs Hw H IH];
    intros pcs G Hg HR HB HO; cbn [emit_all pcs_after goods] in *.
  - exact (conj HR HO).
  - (* an output that is no vote *) destruct Hg as [_ Hg]. destruct HO as [HC HS].
    assert (E1 : rec_out i x G = G) by (destruct x; try reflexivity; exfalso; eapply Hx; reflexivity).
    rewrite E1. apply IH; [exact Hg|exact HR|exact HB|]. split; [apply Csub_more; exact HC|exact HS].
  - (* a proposal signed: only the signer moves *)
    destruct HO as [HC HS]. apply IH; [exact Hg|exact HR|exact HB|]. split; [exact HC|].
    apply (SInv_move i s G r 1 None G HS Hlt); [auto|discriminate].
  - (* a fresh vote enters the trace *)
    destruct Hg as [Hgood Hg]. destruct (fresh_vote i off pcs s G t r b Hlt Hgood HR HB HO) as [HR' HO'].
    apply IH; [exact Hg|exact HR'| |exact HO']. eapply Bsub_incl; [apply rec_out_grows|exact HB].
  - (* the vote last signed, again: it is in the trace already *)
    destruct Hg as [_ Hg]. destruct HO as [HC HS]. destruct Hw as (w & Ew & Eq).
    subst r. rewrite (same_vote i s G t b w HS Hh Ew Eq).
    apply IH; [exact Hg|exact HR|exact HB|]. split; [apply Csub_more; exact HC|exact HS].
Qed.

Record sys := mkSys {
  st : nat -> node;                       (* the honest validators' nodes, by validator index *)
  offs : nat -> list vote;                (* ghost: what was delivered to each *)
  pcss : nat -> list (Z * block_id);      (* ghost: the block precommits each has emitted *)
  tr : list gv;                           (* the distinct votes so far, oldest first: an honest one enters when signed,
                                             a Byzantine one when first delivered to an honest node *)
  cms : list (nat * bytes);               (* the commits observed: (validator, block hash) *)
  dur : nat -> valset * option voteset * option bytes;   (* what each node starts the height from *)
  logs : nat -> option (list input)       (* each node's write-ahead log of the height, newest first;
                                             None once a peer's majority claim - which the code does
                                             not log - has changed the node's state *)
}.
Definition upd {A} (f : nat -> A) (i : nat) (x : A) : nat -> A := fun j => if Nat.eqb j i then x else f j.
Lemma upd_same {A} (f : nat -> A) i x : upd f i x i = x. Proof. unfold upd. now rewrite Nat.eqb_refl. Qed.
Lemma upd_other {A} (f : nat -> A) i x j : j <> i -> upd f i x j = f j.
Proof. intro H. unfold upd. destruct (Nat.eqb_spec j i); [contradiction|reflexivity]. Qed.
Lemma upd_id {A} (f : nat -> A) i j : upd f i (f i) j = f j.
Proof. unfold upd. destruct (Nat.eqb_spec j i) as [->|_]; reflexivity. Qed.

Definition commits_of (i : nat) (o : list out) : list (nat * bytes) :=
  flat_map (fun x => match x with OCommit _ hash => [(i, hash)] | _ => [] end) o.

Inductive sstep (S S' : sys) : Prop :=
| sstep_intro i inp n' o :
    byz i = false -> height (st S i) = h0 ->
    input_ok inp (st S i) -> admissible inp (tr S) ->
    handle c inp (st S i) = Ok (n', o) ->
    S' = mkSys (upd (st S) i n') (upd (offs S) i (delivered_of inp ++ offs S i))
               (upd (pcss S) i (pcs_after o (pcss S i)))
               (emit_all i o (deliver_tr inp (tr S))) (commits_of i o ++ cms S)
               (dur S) (upd (logs S) i (option_map (cons inp) (logs S i))) ->
    sstep S S'
(* a peer's claim of a +2/3 majority (VoteSetMaj23Message): recorded in the node's vote sets *)
| sstep_maj i r t peer b :
    byz i = false -> height (st S i) = h0 ->
    S' = mkSys (upd (st S) i (set_votes (st S i) (hv_set_peer_maj23 (votes (st S i)) r t peer b)))
               (offs S) (pcss S) (tr S) (cms S) (dur S) (upd (logs S) i None) ->
    sstep S S'
(* crash and restart: the node is re-initialised from its durable parts, with the signer file as the
   crash left it, and replays its log *)
| sstep_restart i l n0' nr :
    byz i = false -> height (st S i) = h0 -> logs S i = Some l ->
    init_node h0 (fst (fst (dur S i))) (snd (fst (dur S i))) (snd (dur S i)) (sg (st S i)) = Ok n0' ->
    run c (rev l) n0' = Ok nr ->
    S' = mkSys (upd (st S) i nr) (offs S) (pcss S) (tr S) (cms S) (dur S) (logs S) ->
    sstep S S'.

Definition init_sys (S : sys) : Prop :=
  tr S = [] /\ cms S = [] /\
  forall i, byz i = false ->
    offs S i = [] /\ pcss S i = [] /\ logs S i = Some [] /\
    exists vs lc me s, dur S i = (vs, lc, me) /\ init_node h0 vs lc me s = Ok (st S i) /\ vals_of vs = VS /\ sg_h s < h0.

Inductive reachable : sys -> Prop :=
| reach_init S : init_sys S -> reachable S
| reach_step S S' : reachable S -> sstep S S' -> reachable S'.

(* an honest node: the invariant [J] of Proofs/Emit.v over its deliveries and its own precommits, the
   deliveries in the trace, and [Own] *)
Definition NI (i : nat) (S : sys) : Prop :=
  J VS h0 (offs S i) (pcss S i) (st S i) /\ Bsub (offs S i) (tr S) /\ Csub i (tr S) (pcss S i) /\ SInv i (sg (st S i)) (tr S).
Definition commit_backed_in (G : list gv) (a : bytes) : Prop :=
  a <> [] /\ exists r b, b_hash b = a /\ Qr VS (votedG G r 2%N b).
Definition LogInv (i : nat) (S : sys) : Prop :=
  forall l, logs S i = Some l ->
    exists s0 n0, init_node h0 (fst (fst (dur S i))) (snd (fst (dur S i))) (snd (dur S i)) s0 = Ok n0 /\ run c (rev l) n0 = Ok (st S i).
(* the trace obeys the local rules; every honest node satisfies [NI] and is where its log replays to;
   every commit observed has +2/3 precommits in the trace *)
Definition SysInv (S : sys) : Prop :=
  Rules (tr S) /\ (forall i, byz i = false -> NI i S /\ LogInv i S) /\ (forall i a, In (i, a) (cms S) -> commit_backed_in (tr S) a).

Lemma init_SysInv S : init_sys S -> SysInv S.
Proof.
  intros (Et & Ec & Hn). split; [rewrite Et; apply Rules_nil|]. split; [|rewrite Ec; intros i a []].
  intros i Hi. destruct (Hn i Hi) as (Eo & Ep & El & vs & lc & me & s & Ed & Ei & Ev & Hs). split.
  - unfold NI. rewrite Eo, Ep, Et.
    split; [|split; [intros v []|split; [intros r b []|split; [intros e []|]]]].
    + split; [apply (init_ok VS h0 vs lc me s _ Ev Ei)|]. split; [apply (init_inv _ _ _ _ _ _ Ei)|]. intros _ r0 b [].
    + unfold init_node in Ei. destruct (new_hvs _ _); try discriminate. injection Ei as <-. cbn. lia.
  - intros l Hl. rewrite El in Hl. injection Hl as <-. rewrite Ed. cbn [fst snd rev run]. exists s, (st S i). auto.
Qed.

Lemma commit_backed_incl G G' a : incl G G' -> commit_backed_in G a -> commit_backed_in G' a.
Proof.
  intros Hi (Ha & r & b & Hb & HQ). split; [exact Ha|]. exists r, b. split; [exact Hb|].
  eapply Qr_mono; [|exact HQ]. intro j. apply votedG_incl. exact Hi.
Qed.

(* delivery adds at most a Byzantine validator's vote, which the local rules do not constrain; an
   honest validator's vote is in the trace already, by [admissible] *)
Lemma deliver_tr_spec inp G : grows (fun e => byz (g_idx e) = true) G (deliver_tr inp G).
Proof.
  destruct inp as [| |v peer|]; cbn [deliver_tr]; try apply grows_refl.
  destruct (vb v && typ12 (v_type v) && byz (vidx v)) eqn:E; [|apply grows_refl].
  apply andb_prop in E as [_ Eb]. apply grows_add. exact Eb.
Qed.
Lemma deliver_Rules inp G : Rules G -> Rules (deliver_tr inp G).
Proof.
  intro HR. destruct inp as [| |v peer|]; cbn [deliver_tr]; try exact HR.
  destruct (vb v && typ12 (v_type v) && byz (vidx v)) eqn:E; [|exact HR]. apply andb_prop in E as [_ Eb].
  apply add_new_Rules; [exact HR|]. intros _ Hb. cbn in Hb. unfold vidx in Eb. congruence.
Qed.
Lemma Bsub_deliver inp off G : admissible inp G -> Bsub off G -> Bsub (delivered_of inp ++ off) (deliver_tr inp G).
Proof.
  intros Hadm HB v Hv Hval Ht. apply in_app_or in Hv as [Hv|Hv]; [|apply (deliver_tr_spec inp G); apply HB; assumption].
  destruct inp as [| |v0 peer|]; try (destruct Hv; fail). destruct Hv as [<-|[]]. cbn [deliver_tr]. rewrite Hval, Ht. cbn [andb].
  destruct (byz (vidx v0)) eqn:Eb; [apply in_add_new; right; reflexivity|]. apply Hadm; assumption.
Qed.

Lemma in_commits_of i o j a : In (j, a) (commits_of i o) -> j = i /\ exists hc, In (OCommit hc a) o.
Proof.
  unfold commits_of. rewrite in_flat_map. intros (x & Hx & Hin). destruct x; try (destruct Hin; fail).
  destruct Hin as [E|[]]. injection E as <- <-. split; [reflexivity|]. eexists. exact Hx.
Qed.

Lemma LogInv_other i j S S' : j <> i -> dur S' = dur S -> st S' j = st S j -> logs S' j = logs S j -> LogInv j S -> LogInv j S'.
Proof. intros _ Ed Es El H l Hl. rewrite Ed, Es. apply H. rewrite <- El. exact Hl. Qed.

Lemma J_set_peer off pcs n r t peer b :
  J VS h0 off pcs n -> J VS h0 off pcs (set_votes n (hv_set_peer_maj23 (votes n) r t peer b)).
Proof.
  intro HJ. apply (J_of_G VS h0 _ _ n); [exact HJ|apply votes_G; apply hv_set_peer_le|].
  destruct HJ as ((L & Hok) & _). split; [exact L|]. cbn [height votes set_votes]. intro E. destruct (Hok E) as [A B].
  split; [apply hv_set_peer_ok; [exact Hbounded|exact A]|]. rewrite <- B. apply hv_set_peer_height.
Qed.

Theorem sstep_SysInv S S' : SysInv S -> sstep S S' -> SysInv S'.
Proof.
  intros (HR & HN & HCm) [i inp n' o Hi Hh Hin Hadm Eh ->|i r t peer b Hi Hh ->|i l n0' nr Hi Hh Hl Ei Er ->].
  3:{ (* restart: the replay of the log with the signer file of the crash is the state before it *)
      destruct (HN i Hi) as (_ & HLi). destruct (HLi l Hl) as (s0 & n0 & E0 & Erun).
      destruct (restart_is_identity c Hskip _ _ _ _ _ _ _ _ E0 Erun) as (n0'' & E0' & Erun').
      rewrite Ei in E0'. injection E0' as <-. rewrite Er in Erun'. injection Erun' as ->.
      split; [exact HR|]. split; [|exact HCm]. intros j Hj.
      unfold NI, LogInv. cbn [st offs pcss tr dur logs]. rewrite upd_id. exact (HN j Hj). }
  2:{ split; [exact HR|]. split; [|exact HCm]. intros j Hj. destruct (HN j Hj) as (HNj & HLj).
      unfold NI, LogInv. cbn [st offs pcss tr dur logs].
      destruct (Nat.eq_dec j i) as [->|Hne]; [|rewrite !upd_other by exact Hne; split; assumption].
      rewrite !upd_same. split; [|discriminate].
      destruct HNj as (HJ & HT). split; [apply J_set_peer; exact HJ|exact HT]. }
  destruct (HN i Hi) as ((HJ & HB & HO) & HLi).
  pose proof (deliver_tr_spec inp (tr S)) as D.
  set (G1 := deliver_tr inp (tr S)) in *.
  set (off' := delivered_of inp ++ offs S i).
  pose proof (emit_all_grows i o G1) as E.
  assert (B1 : Bsub off' G1) by (apply Bsub_deliver; assumption).
  assert (Dh : forall j, byz j = false -> forall e, byz (g_idx e) = true -> g_idx e <> j) by (intros j Hj e He Hidx; congruence).
  destruct (T_handle VS Hbounded h0 c inp Hskip _ _ _ _ _ HJ Hh Hin Eh) as [HJ' Hgoods].
  pose proof (SG_handle c inp Hskip _ _ _ Eh) as Hsg. rewrite Hh in Hsg.
  destruct (emit_step i off' _ _ _ Hsg _ _ Hgoods (deliver_Rules inp _ HR) B1 (Own_other i _ _ _ _ _ D (Dh i Hi) HO)) as (R2 & O2).
  set (G2 := emit_all i o G1) in *.
  assert (B2 : Bsub off' G2) by (eapply Bsub_incl; [apply E|exact B1]).
  assert (I02 : incl (tr S) G2) by (eapply incl_tran; [apply D|apply E]).
  split; [exact R2|]. split.
  - intros j Hj. unfold NI, LogInv. cbn [st offs pcss tr dur logs]. destruct (Nat.eq_dec j i) as [->|Hne].
    + rewrite !upd_same. split; [exact (conj HJ' (conj B2 O2))|].
      intros l Hl. destruct (logs S i) as [l0|] eqn:El0; [|discriminate]. cbn in Hl. injection Hl as <-.
      destruct (HLi l0 El0) as (s0 & n0 & E0 & Erun). exists s0, n0. split; [exact E0|].
      cbn [rev]. rewrite run_app, Erun. cbn [run]. rewrite Eh. reflexivity.
    + rewrite !upd_other by exact Hne. destruct (HN j Hj) as ((Jj & Bj & Oj) & HLj).
      split; [|exact HLj]. split; [exact Jj|]. split; [eapply Bsub_incl; [exact I02|exact Bj]|].
      apply (Own_other j _ _ _ G1 G2 E); [intros e He; congruence|].
      apply (Own_other j _ _ _ (tr S) G1 D (Dh j Hj)). exact Oj.
  - cbn [cms tr]. intros j a Hja. apply in_app_or in Hja as [Hja|Hja].
    + apply in_commits_of in Hja as [-> (hc & Hoc)].
      destruct HJ as (Hok & _).
      destruct (CW_handle VS Hbounded h0 c inp Hskip _ _ _ _ _ _ Hok Hh Eh Hoc) as (_ & Ha & r & b & Hb & HQ).
      split; [exact Ha|]. exists r, b. split; [exact Hb|]. eapply Qr_G; [exact B2|reflexivity|exact HQ].
    + eapply commit_backed_incl; [exact I02|]. eapply HCm. exact Hja.
Qed.

Theorem reachable_SysInv S : reachable S -> SysInv S.
Proof. induction 1 as [S Hi|S S' _ IH Hs]; [apply init_SysInv; exact Hi|eapply sstep_SysInv; eauto]. Qed.

Definition admissible_b (inp : input) (G : list gv) : bool :=
  match inp with
  | IVote v _ => negb (vb v && typ12 (v_type v) && negb (byz (vidx v))) || existsb (gv_eqb (gv_of v)) G
  | _ => true
  end.
Definition input_ok_b (inp : input) (n : node) : bool := match inp with ITimeout _ r _ => r <=? round n | _ => true end.
Definition exec1 (S : sys) (i : nat) (inp : input) : option sys :=
  if negb (byz i) && (height (st S i) =? h0) && input_ok_b inp (st S i) && admissible_b inp (tr S) then
    match handle c inp (st S i) with
    | Ok (n', o) => Some (mkSys (upd (st S) i n') (upd (offs S) i (delivered_of inp ++ offs S i))
                                (upd (pcss S) i (pcs_after o (pcss S i)))
                                (emit_all i o (deliver_tr inp (tr S))) (commits_of i o ++ cms S)
                                (dur S) (upd (logs S) i (option_map (cons inp) (logs S i))))
    | _ => None
    end
  else None.
Inductive sevent := EIn (i : nat) (inp : input) | EMaj (i : nat) (r : Z) (t : N) (peer : bytes) (b : block_id)
                 | ERestart (i : nat).
Definition exec_ev (S : sys) (e : sevent) : option sys :=
  match e with
  | EIn i inp => exec1 S i inp
  | EMaj i r t peer b =>
    if negb (byz i) && (height (st S i) =? h0) then
      Some (mkSys (upd (st S) i (set_votes (st S i) (hv_set_peer_maj23 (votes (st S i)) r t peer b)))
                  (offs S) (pcss S) (tr S) (cms S) (dur S) (upd (logs S) i None))
    else None
  | ERestart i =>
    if negb (byz i) && (height (st S i) =? h0) then
      match logs S i with
      | Some l =>
        match init_node h0 (fst (fst (dur S i))) (snd (fst (dur S i))) (snd (dur S i)) (sg (st S i)) with
        | Ok n0' => match run c (rev l) n0' with
                    | Ok nr => Some (mkSys (upd (st S) i nr) (offs S) (pcss S) (tr S) (cms S) (dur S) (logs S))
                    | _ => None
                    end
        | _ => None
        end
      | None => None
      end
    else None
  end.
Fixpoint exec (S : sys) (script : list sevent) : option sys :=
  match script with
  | [] => Some S
  | e :: t => match exec_ev S e with Some S' => exec S' t | None => None end
  end.

Lemma input_ok_b_ok inp n : input_ok_b inp n = true -> input_ok inp n.
Proof. destruct inp; cbn; try exact (fun _ => I). apply Z.leb_le. Qed.
Lemma admissible_b_ok inp G : admissible_b inp G = true -> admissible inp G.
Proof.
  destruct inp as [| |v peer|]; cbn; try exact (fun _ => I). intros E A B C. rewrite A, B, C in E. apply gv_mem. exact E.
Qed.

Lemma exec1_step S i inp S' : exec1 S i inp = Some S' -> sstep S S'.
Proof.
  unfold exec1. destruct (negb (byz i) && _ && _ && _) eqn:E; [|discriminate].
  apply andb_prop in E as [E Ea]. apply andb_prop in E as [E Ei]. apply andb_prop in E as [Eb Eh].
  destruct (handle c inp (st S i)) as [[n' o]| |] eqn:Hd; try discriminate. intro H. injection H as <-.
  apply (sstep_intro S _ i inp n' o); [now apply negb_true_iff in Eb|now apply Z.eqb_eq| | |exact Hd|reflexivity].
  - apply input_ok_b_ok. exact Ei.
  - apply admissible_b_ok. exact Ea.
Qed.
Lemma exec_ev_step S e S' : exec_ev S e = Some S' -> sstep S S'.
Proof.
  destruct e as [i inp|i r t peer b|i]; cbn [exec_ev]; [apply exec1_step| |].
  - destruct (negb (byz i) && _) eqn:E; [|discriminate]. apply andb_prop in E as [Eb Eh]. intro H. injection H as <-.
    apply (sstep_maj S _ i r t peer b); [now apply negb_true_iff in Eb|now apply Z.eqb_eq|reflexivity].
  - destruct (negb (byz i) && _) eqn:E; [|discriminate]. apply andb_prop in E as [Eb Eh].
    destruct (logs S i) as [l|] eqn:El; [|discriminate].
    destruct (init_node _ _ _ _ _) as [n0'| |] eqn:Ei; try discriminate.
    destruct (run c (rev l) n0') as [nr| |] eqn:Er; try discriminate. intro H. injection H as <-.
    apply (sstep_restart S _ i l n0' nr); [now apply negb_true_iff in Eb|now apply Z.eqb_eq|exact El|exact Ei|exact Er|reflexivity].
Qed.
Lemma exec_reachable script : forall S S', reachable S -> exec S script = Some S' -> reachable S'.
Proof using Hskip. (* [c_skip_commit c = false] is a premise of the statement, though nothing here needs it *)
  induction script as [|e t IH]; intros S S' HS; cbn [exec]; [intro E; injection E as <-; exact HS|].
  destruct (exec_ev S e) as [S1|] eqn:E1; [|discriminate]. apply IH. eapply reach_step; [exact HS|apply (exec_ev_step S e S1 E1)].
Qed.

Hypothesis byz_bound : 3 * pow_of VS byz < pow_of VS (fun _ => true).

Definition power (i : nat) : Z := snd (nth i VS (([] : bytes), 0)).
Definition pvals : list nat := seq 0 (length VS).

Lemma pow_bridge_gen pre vals P :
  Protocol.pow nat (fun i => snd (nth i (pre ++ vals) (([] : bytes), 0))) P (seq (length pre) (length vals))
  = pow_from (length pre) vals P.
Proof.
  revert pre. induction vals as [|[a p] t IH]; intro pre; cbn [length seq Protocol.pow pow_from]; [reflexivity|].
  rewrite nth_middle. cbn [snd]. f_equal.
  specialize (IH (pre ++ [(a, p)])). rewrite <- app_assoc, app_length, Nat.add_1_r in IH. exact IH.
Qed.
Lemma pow_bridge P : Protocol.pow nat power P pvals = pow_of VS P.
Proof. exact (pow_bridge_gen [] VS P). Qed.
Lemma power_nonneg i : 0 <= power i.
Proof.
  unfold power. destruct (nth_in_or_default i VS (([] : bytes), 0)) as [H|H]; [|rewrite H; cbn; lia].
  destruct Hbounded as [Hn _]. unfold nonneg in Hn. rewrite Forall_forall in Hn. apply Hn. exact H.
Qed.

Lemma quorum_bridge P Q : (forall i, P i = true -> Q i = true) -> Qr VS P -> Protocol.quorum nat pvals power Q.
Proof.
  intros H HQ. apply (Qr_mono P Q H) in HQ. unfold Qr in HQ. rewrite (two_thirds_spec VS Hbounded) in HQ.
  unfold Protocol.quorum, Protocol.total, Protocol.powS. rewrite !pow_bridge.
  (* floor(2T/3) < p gives 2T < 3p for integers *)
  Z.to_euclidean_division_equations. lia.
Qed.

Definition pty (t : N) : Protocol.vtype := if N.eqb t 1 then Protocol.Prevote else Protocol.Precommit.
Lemma pty_inv t : typ12 t = true -> match pty t with Protocol.Prevote => t = 1%N | Protocol.Precommit => t = 2%N end.
Proof. unfold typ12, pty. destruct (N.eqb_spec t 1) as [->|_]; [reflexivity|]. cbn. apply N.eqb_eq. Qed.
Definition cval (b : block_id) : option bytes := match b_hash b with [] => None | _ => Some (b_hash b) end.
Lemma cval_some b a : cval b = Some a <-> (b_hash b = a /\ a <> []).
Proof.
  unfold cval. destruct (b_hash b) eqn:E; split; try discriminate.
  - intros [<- H]. contradiction.
  - intro H. injection H as <-. split; [reflexivity|discriminate].
  - intros [<- _]. reflexivity.
Qed.


(* Protocol.v counts rounds in nat, a Byzantine vote may carry any round: rounds are shifted by a
   lower bound [rmin] of those in the trace, which keeps their order *)
Section Conv.
Variable rmin : Z.
Definition conv (e : gv) : Protocol.vote nat bytes :=
  Protocol.Build_vote nat bytes (g_idx e) (Z.to_nat (g_round e - rmin)) (pty (g_type e)) (cval (g_bid e)).

Lemma q_bridge G r t b : Qr VS (votedG G r t b) ->
  Protocol.quorum nat pvals power (Protocol.voted nat Nat.eqb bytes bytes_eqb (map conv G) (Z.to_nat (r - rmin)) (pty t) (cval b)).
Proof.
  apply quorum_bridge. intros i H. apply votedG_iff in H.
  exact (Protocol.In_voted nat Nat.eqb Nat.eqb_spec bytes bytes_eqb bytes_eqb_spec _ _ (in_map conv _ _ H)).
Qed.

Lemma hrs_lt_conv e0 e : rmin <= g_round e0 ->
  hrs_lt h0 (g_round e0) (st_of (g_type e0)) h0 (g_round e) (st_of (g_type e)) = true ->
  (Z.to_nat (g_round e0 - rmin) < Z.to_nat (g_round e - rmin))%nat \/
  Z.to_nat (g_round e0 - rmin) = Z.to_nat (g_round e - rmin) /\ pty (g_type e0) = Protocol.Prevote /\ pty (g_type e) = Protocol.Precommit.
Proof.
  intros M H.
  assert (A : (Z.to_nat (g_round e0 - rmin) < Z.to_nat (g_round e - rmin))%nat \/
              Z.to_nat (g_round e0 - rmin) = Z.to_nat (g_round e - rmin) /\ st_of (g_type e0) < st_of (g_type e))
    by (unfold hrs_lt in H; lia).
  destruct A as [A|[A B]]; [left; exact A|right]. split; [exact A|].
  unfold st_of, pty in *. destruct (N.eqb (g_type e0) 1), (N.eqb (g_type e) 1); [lia|split; reflexivity|lia|lia].
Qed.

Variable G : list gv.
Hypothesis HRules : Rules G.
Hypothesis Hmin : forall e, In e G -> rmin <= g_round e.

Lemma conv_split pre' e' post' : map conv G = pre' ++ e' :: post' -> Protocol.honest nat byz (Protocol.voter nat bytes e') ->
  exists pre e, pre' = map conv pre /\ e' = conv e /\ Loc pre e /\ incl pre G.
Proof.
  intros Heq Hh. apply map_eq_app in Heq as (pre & l & EG & <- & Heq). apply map_eq_cons in Heq as (e & post & -> & <- & _).
  exists pre, e. split; [reflexivity|]. split; [reflexivity|]. split; [exact (HRules pre e post EG Hh)|].
  rewrite EG. apply incl_appl, incl_refl.
Qed.

Lemma R0_conv : Protocol.R0 nat bytes byz (map conv G).
Proof.
  intros pre' e' post' Heq Hh e0' Hin0 Hv.
  destruct (conv_split _ _ _ Heq Hh) as (pre & e & -> & -> & (_ & L0 & _) & Hsub).
  apply in_map_iff in Hin0 as (e0 & <- & Hin0).
  destruct (hrs_lt_conv e0 e (Hmin e0 (Hsub e0 Hin0)) (L0 e0 Hin0 Hv)) as [A|(A & B & _)]; [left; exact A|right; auto].
Qed.

Lemma R1_conv : Protocol.R1 nat bytes byz (map conv G).
Proof.
  intros pre' e' post' Heq Hh e0' Hin0 Hv Hr Hty.
  destruct (conv_split _ _ _ Heq Hh) as (pre & e & -> & -> & (_ & L0 & _) & Hsub).
  apply in_map_iff in Hin0 as (e0 & <- & Hin0). cbn in Hr, Hty.
  destruct (hrs_lt_conv e0 e (Hmin e0 (Hsub e0 Hin0)) (L0 e0 Hin0 Hv)) as [A|(_ & B & C)]; [lia|congruence].
Qed.

Lemma R2_conv : Protocol.R2 nat Nat.eqb bytes bytes_eqb pvals power byz (map conv G).
Proof.
  intros pre' e' post' b Heq Hh Hty Hval.
  destruct (conv_split _ _ _ Heq Hh) as (pre & e & -> & -> & (Ht & _ & L2 & _) & _).
  apply pty_inv in Ht. cbn in Hty, Hval. rewrite Hty in Ht.
  apply cval_some in Hval as [Hb Hne]. unfold Protocol.polka. cbn.
  replace (Some b) with (cval (g_bid e)) by (apply cval_some; auto).
  apply (q_bridge pre (g_round e) 1%N (g_bid e)). apply L2; [exact Ht|congruence].
Qed.

Lemma R3_conv : Protocol.R3 nat Nat.eqb bytes bytes_eqb pvals power byz (map conv G).
Proof.
  intros pre' e' post' e0' b Heq Hh Hty Hin0 Hv Hty0 Hval0 Hlt Hne.
  destruct (conv_split _ _ _ Heq Hh) as (pre & e & -> & -> & (Ht & _ & _ & L3) & Hsub).
  apply in_map_iff in Hin0 as (e0 & <- & Hin0). cbn in Hh, Hty, Hv, Hty0, Hval0, Hlt, Hne.
  pose proof (Hmin e0 (Hsub e0 Hin0)) as M0.
  assert (Ht0 : typ12 (g_type e0) = true) by (apply (Rules_typ G e0 HRules); [apply Hsub; exact Hin0|congruence]).
  apply pty_inv in Ht, Ht0. rewrite Hty in Ht. rewrite Hty0 in Ht0.
  apply cval_some in Hval0 as [Hb0 Hb0ne].
  assert (Hne' : b_hash (g_bid e) <> b_hash (g_bid e0)).
  { intro E. apply Hne. apply cval_some. split; congruence. }
  destruct (L3 Ht e0 Hin0 Hv Ht0 ltac:(congruence) ltac:(lia) Hne') as (r' & x' & Hr' & Hx' & HQ).
  exists (Z.to_nat (r' - rmin)), (cval x'). split; [cbn; lia|]. split.
  - intro E. apply cval_some in E as [E _]. apply Hx'. congruence.
  - apply (q_bridge pre r' 1%N x'). exact HQ.
Qed.
End Conv.

Definition round_floor (G : list gv) : Z := fold_right Z.min 0 (map g_round G).
Lemma round_floor_le G e : In e G -> round_floor G <= g_round e.
Proof.
  unfold round_floor. induction G as [|x G IH]; intros []; cbn.
  - subst x. lia.
  - specialize (IH H). lia.
Qed.

Lemma byz_bound' : 3 * Protocol.powS nat pvals power byz < Protocol.total nat pvals power.
Proof. unfold Protocol.total, Protocol.powS. rewrite !pow_bridge. exact byz_bound. Qed.

Theorem rules_agreement G a b : Rules G -> commit_backed_in G a -> commit_backed_in G b -> a = b.
Proof.
  intros HR (Ha & ra & xa & Hxa & Qa) (Hb & rb & xb & Hxb & Qb).
  set (rmin := round_floor G).
  assert (Hmin : forall e, In e G -> rmin <= g_round e) by (intros e He; apply round_floor_le; exact He).
  apply (Protocol.agreement nat Nat.eqb Nat.eqb_spec bytes bytes_eqb bytes_eqb_spec pvals power power_nonneg byz byz_bound'
           (map (conv rmin) G) (Z.to_nat (ra - rmin)) a (Z.to_nat (rb - rmin)) b).
  - apply R0_conv; assumption.
  - apply R1_conv; assumption.
  - apply R2_conv; assumption.
  - apply R3_conv; assumption.
  - unfold Protocol.commitq. replace (Some a) with (cval xa) by (apply cval_some; auto). apply (q_bridge rmin G ra 2%N xa Qa).
  - unfold Protocol.commitq. replace (Some b) with (cval xb) by (apply cval_some; auto). apply (q_bridge rmin G rb 2%N xb Qb).
Qed.

Theorem system_agreement S i a j b : reachable S -> In (i, a) (cms S) -> In (j, b) (cms S) -> a = b.
Proof.
  intros HS Ha Hb. destruct (reachable_SysInv S HS) as (HR & _ & HC).
  apply (rules_agreement (tr S) a b HR (HC i a Ha) (HC j b Hb)).
Qed.
End System.
