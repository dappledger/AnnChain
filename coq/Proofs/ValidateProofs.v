(* What an accepted block guarantees (C02): every header field ValidateBlock compares equals the
   state's or the hash of the part it commits to, the proposer is a validator, and - past the first
   height - the embedded last commit verifies against the previous validator set for the previous
   block id at the previous height.  Chains of accepted blocks are linear. *)
From Coq Require Import List NArith ZArith Lia Bool.
From AnnVerif Require Import Base.Res Base.Bytes Model.VoteSet Model.Validate Proofs.BytesProofs Proofs.PowerSum Proofs.VoteSetProofs.
Import ListNotations.
Open Scope Z_scope.

Record accepted (st : vstate) (b : block) (hd : header) (lc : commit) : Prop := mkAccepted {
  acc_header : bl_header b = Some hd;
  acc_data : exists dh, bl_data b = Some (hd_numtxs hd, dh) /\ hd_datahash hd = dh;
  acc_lc : exists lch, bl_lc b = Some (lc, lch) /\ hd_lchash hd = lch;
  acc_chain : hd_chain hd = s_chain st;
  acc_height : hd_height hd = s_height st + 1;
  acc_last : hd_last hd = s_last st;
  acc_app : hd_apphash hd = s_app st;
  acc_rcp : hd_rcphash hd = s_rcp st;
  acc_valhash : hd_valhash hd = s_valhash st;
  acc_proposer : exists v, In v (s_vals st) /\ fst v = hd_proposer hd;
  acc_first : hd_height hd = 1 -> c_pre lc = [];
  acc_commit : hd_height hd <> 1 -> verify_commit (s_lastvals st) (s_last st) (hd_height hd - 1) lc = Ok tt }.

Lemma negb_if_false (c : bool) (x y : N) : (if negb c then x else y) = 0%N -> x <> 0%N -> c = true /\ y = 0%N.
Proof. destruct c; cbn; auto. intros -> H. contradiction. Qed.

Theorem validate_sound st b : validate st b = 0%N -> exists hd lc, accepted st b hd lc.
Proof.
  unfold validate. destruct (bl_header b) as [hd|] eqn:Eh; [|discriminate].
  destruct (bl_data b) as [[ntx dh]|] eqn:Ed; [|discriminate]. destruct (bl_lc b) as [[lc lch]|] eqn:El; [|discriminate].
  intro H.
  apply negb_if_false in H as [H1 H]; [|discriminate]. apply negb_if_false in H as [H2 H]; [|discriminate].
  apply negb_if_false in H as [H3 H]; [|discriminate]. apply negb_if_false in H as [H4 H]; [|discriminate].
  apply negb_if_false in H as [H5 H]; [|discriminate]. apply negb_if_false in H as [H6 H]; [|discriminate].
  apply negb_if_false in H as [H7 H]; [|discriminate]. apply negb_if_false in H as [H8 H]; [|discriminate].
  cbn zeta in H.
  destruct (negb (N.eqb (if hd_height hd =? 1 then 0%N else commit_basic lc) 0)) eqn:Ecb.
  { exfalso. apply negb_true_iff in Ecb. apply N.eqb_neq in Ecb. contradiction. }
  apply negb_if_false in H as [H9 H]; [|discriminate]. apply negb_if_false in H as [H10 H]; [|discriminate].
  apply bytes_eqb_eq in H1, H5, H6, H7, H8, H9. apply bid_eqb_eq in H4. apply Z.eqb_eq in H2, H3.
  apply existsb_exists in H10 as (v & Hv & Hvp). apply bytes_eqb_eq in Hvp.
  exists hd, lc. constructor; try assumption.
  - exists dh. subst ntx. auto.
  - exists lch. auto.
  - exists v. auto.
  - intro E1. rewrite E1 in H. cbn in H. destruct (c_pre lc); [reflexivity|discriminate].
  - intro N1. destruct (Z.eqb_spec (hd_height hd) 1) as [E|_]; [contradiction|].
    apply negb_if_false in H as [_ H]; [|discriminate].
    destruct (verify_commit _ _ _ _) as [[]|e|w]; [reflexivity|exfalso; unfold vcode in H; lia..].
Qed.

(* with the soundness of VerifyCommit (C15) *)
Theorem accepted_commit_quorum st b hd lc : bounded (s_lastvals st) -> accepted st b hd lc -> hd_height hd <> 1 ->
  length (c_pre lc) = length (s_lastvals st) /\
  two_thirds (s_lastvals st) <
    pow_of (s_lastvals st) (fun i => match nth i (c_pre lc) None with
                                     | Some v => good_full (s_last st) (hd_height hd - 1) (commit_round lc) v
                                     | None => false end).
Proof. intros Hb A N1. apply verify_commit_sound; [exact Hb|]. apply (acc_commit _ _ _ _ A N1). Qed.

Fixpoint linked (h : Z) (last : block_id) (app rcp : bytes) (l : list applied) : Prop :=
  match l with
  | [] => True
  | a :: t => exists hd, bl_header (ap_block a) = Some hd /\ hd_height hd = h + 1 /\ hd_last hd = last /\
                         hd_apphash hd = app /\ hd_rcphash hd = rcp /\ linked (h + 1) (ap_id a) (ap_app a) (ap_rcp a) t
  end.

Theorem chain_linear l : forall st st', run_chain st l = Some st' ->
  linked (s_height st) (s_last st) (s_app st) (s_rcp st) l /\ s_height st' = s_height st + Z.of_nat (length l).
Proof.
  induction l as [|a t IH]; intros st st'; cbn [run_chain linked length].
  - intro E. injection E as <-. split; [exact I|lia].
  - destruct (N.eqb (validate st (ap_block a)) 0) eqn:Ev; [|discriminate]. apply N.eqb_eq in Ev.
    destruct (validate_sound _ _ Ev) as (hd & lc & A). rewrite (acc_header _ _ _ _ A). intro E.
    destruct (IH _ _ E) as [L Hh]. cbn [advance s_height s_last s_app s_rcp] in L, Hh.
    split.
    + exists hd. rewrite (acc_height _ _ _ _ A) in L. repeat split; try apply A. exact L.
    + rewrite Hh, (acc_height _ _ _ _ A). lia.
Qed.
