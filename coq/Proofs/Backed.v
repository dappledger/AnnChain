(* Every +2/3 majority a node sees in any of its vote sets is backed by votes that were delivered
   to it: valid votes (right height, round, type, signature verifying under the key of the index)
   of distinct validators holding more than two thirds of the power.  This lifts the vote-set
   invariant of C15 through HeightVoteSet (rounds added on demand, peer catch-up rounds, votes
   routed by round and type) - the link between what a node believes and what was sent. *)
From Coq Require Import List NArith ZArith Bool.
From AnnVerif Require Import Base.Res Model.VoteSet Model.Node
 Proofs.PowerSum Proofs.VoteSetProofs Proofs.NodeProofs.
Import ListNotations.
Open Scope Z_scope.

Section Backed.
Variable vals : list validator.
Hypothesis Hbounded : bounded vals.

Lemma voted_for_incl H R T off off' b i : incl off off' ->
  voted_for vals H R T off b i = true -> voted_for vals H R T off' b i = true.
Proof.
  intros Hi. unfold voted_for. rewrite !existsb_exists. intros (v & Hin & Hv). exists v. split; [apply Hi; exact Hin|exact Hv].
Qed.

Definition set_ok (offered : list vote) (H R : Z) (T : N) (vs : voteset) : Prop :=
  exists off, Inv vals H R T off vs /\ incl off offered.

Lemma set_ok_mono off off' H R T vs : incl off off' -> set_ok off H R T vs -> set_ok off' H R T vs.
Proof. intros Hi (o & HI & Ho). exists o. split; [exact HI|]. intros x Hx. apply Hi, Ho, Hx. Qed.

Lemma set_ok_maj off H R T vs b : set_ok off H R T vs -> vs_maj23 vs = Some b ->
  two_thirds vals < pow_of vals (voted_for vals H R T off b).
Proof. intros (o & HI & Ho) Hm. exact (Inv_maj_backed vals H R T Hbounded o off vs b HI Ho Hm). Qed.

Definition hvs_ok (offered : list vote) (h : hvs) : Prop :=
  hv_vals h = vals /\
  forall r rv, zlookup r (hv_sets h) = Some rv ->
    set_ok offered (hv_height h) r 1%N (rv_pre rv) /\ set_ok offered (hv_height h) r 2%N (rv_cmt rv).

Lemma hvs_ok_mono off off' h : incl off off' -> hvs_ok off h -> hvs_ok off' h.
Proof.
  intros Hi (Hv & Hs). split; [exact Hv|]. intros r rv Hl. destruct (Hs r rv Hl) as [A B].
  split; eapply set_ok_mono; eauto.
Qed.

Lemma zlookup_app_new {A} k (l : list (Z * A)) k' v x :
  zlookup k (l ++ [(k', v)]) = Some x -> zlookup k l = Some x \/ (zlookup k l = None /\ k' = k /\ x = v).
Proof.
  induction l as [|[j w] t IH]; cbn.
  - destruct (Z.eqb_spec k' k); [intro E; injection E as <-; right; auto|discriminate].
  - destruct (j =? k); [intro E; left; exact E|exact IH].
Qed.

Lemma hv_add_round_ok off h r h' : hvs_ok off h -> hv_add_round h r = Ok h' ->
  hvs_ok off h' /\ hv_height h' = hv_height h.
Proof.
  intros (Hv & Hs) E. apply hv_add_round_inv in E as (a & b & _ & Ea & Eb & ->). split; [|reflexivity]. split; [exact Hv|].
  cbn [hv_height hv_sets]. intros r0 rv Hl. apply zlookup_app_new in Hl. destruct Hl as [Hl|(_ & -> & ->)]; [exact (Hs r0 rv Hl)|].
  cbn [rv_pre rv_cmt]. rewrite Hv in Ea, Eb.
  split; (eexists []; split; [apply Inv_new; assumption|intros x []]).
Qed.

Lemma hv_set_round_ok off h r h' : hvs_ok off h -> hv_set_round h r = Ok h' -> hvs_ok off h' /\ hv_height h' = hv_height h.
Proof.
  intros Hok E. revert Hok.
  apply (hv_set_round_rel (fun a b => hvs_ok off a -> hvs_ok off b /\ hv_height b = hv_height a)) with (r := r) (h := h) (h' := h'); auto.
  - intros a b c Hab Hbc Ha. destruct (Hab Ha) as [Hb E1]. destruct (Hbc Hb) as [Hc E2]. split; [exact Hc|congruence].
  - intros a k b Eab Ha. exact (hv_add_round_ok _ _ _ _ Ha Eab).
Qed.

Lemma new_hvs_ok h0 hv : new_hvs h0 vals = Ok hv -> hvs_ok [] hv /\ hv_height hv = h0.
Proof.
  unfold new_hvs. intro E.
  assert (H0 : hvs_ok [] (mkHvs h0 vals 0 [] [])) by (split; [reflexivity|intros r rv Hl; discriminate]).
  destruct (hv_add_round_ok _ _ _ _ H0 E) as [A B]. split; [exact A|exact B].
Qed.

Lemma hv_get_ok off h r t vs : hvs_ok off h -> (t = 1%N \/ t = 2%N) -> hv_get h r t = Some vs -> set_ok off (hv_height h) r t vs.
Proof.
  intros (Hv & Hs) Ht. unfold hv_get, hv_prevotes, hv_precommits.
  destruct Ht as [-> | ->]; cbn [N.eqb Pos.eqb]; destruct (zlookup r (hv_sets h)) as [rv|] eqn:El; cbn; try discriminate;
    intro E; injection E as <-; apply (Hs r rv El).
Qed.

Lemma hv_put_ok off h r t vs : hvs_ok off h -> (t = 1%N \/ t = 2%N) -> set_ok off (hv_height h) r t vs -> hvs_ok off (hv_put h r t vs).
Proof.
  intros (Hv & Hs) Ht Hvs. unfold hv_put. destruct (zlookup r (hv_sets h)) as [rv|] eqn:El; [|split; assumption].
  split; [exact Hv|]. cbn [hv_sets hv_height]. intros r0 rv0 Hl.
  destruct (Z.eq_dec r r0) as [<-|Hne].
  - rewrite zlookup_zupdate_eq in Hl. injection Hl as <-. destruct (Hs r rv El) as [A B].
    destruct Ht as [-> | ->]; cbn [N.eqb Pos.eqb rv_pre rv_cmt]; split; assumption.
  - rewrite zlookup_zupdate_neq in Hl by exact Hne. exact (Hs r0 rv0 Hl).
Qed.

Lemma hv_add_vote_ok off h v peer h' a c : hvs_ok off h -> hv_add_vote h v peer = Ok (h', a, c) ->
  hvs_ok (v :: off) h' /\ hv_height h' = hv_height h.
Proof.
  intros Hok E.
  assert (Hw : forall g, hvs_ok off g -> hvs_ok (v :: off) g) by (intros g Hg; eapply hvs_ok_mono; [|exact Hg]; intros x Hx; right; exact Hx).
  apply hv_add_vote_inv in E as [[-> _]|(h1 & vs & vs' & Ht & H1 & Eg & Ea & ->)]; [auto|].
  assert (Hok1 : hvs_ok off h1 /\ hv_height h1 = hv_height h).
  { destruct H1 as [->|(h2 & _ & E0 & _ & ->)]; [auto|]. exact (hv_add_round_ok _ _ _ _ Hok E0). }
  destruct Hok1 as [Hok1 Hh1]. rewrite hv_put_height. split; [|exact Hh1].
  destruct (hv_get_ok _ _ _ _ _ Hok1 Ht Eg) as (o & HI & Ho).
  destruct (add_vote_Inv vals _ _ _ Hbounded o vs v HI) as (vs'' & a' & c' & Hav & HI' & _).
  rewrite Hav in Ea. injection Ea as <- _ _.
  apply hv_put_ok; [apply Hw; exact Hok1|exact Ht|]. exists (v :: o). split; [exact HI'|].
  intros x [<-|Hx]; [left; reflexivity|right; apply Ho; exact Hx].
Qed.

Lemma hv_set_peer_ok off h r t peer b : hvs_ok off h -> hvs_ok off (hv_set_peer_maj23 h r t peer b).
Proof.
  intros Hok. unfold hv_set_peer_maj23. destruct (N.eqb t 1 || N.eqb t 2) eqn:Et; cbn [negb]; [|exact Hok].
  assert (Ht : t = 1%N \/ t = 2%N) by (apply orb_true_iff in Et; destruct Et as [E|E]; apply N.eqb_eq in E; auto).
  destruct (hv_get h r t) as [vs|] eqn:Eg; [|exact Hok].
  apply hv_put_ok; [exact Hok|exact Ht|]. destruct (hv_get_ok _ _ _ _ _ Hok Ht Eg) as (o & HI & Ho).
  exists o. split; [apply Inv_set_peer; assumption|exact Ho].
Qed.

Lemma polka_backed off h r b : hvs_ok off h -> maj23 (hv_prevotes h r) = Some b ->
  two_thirds vals < pow_of vals (voted_for vals (hv_height h) r 1%N off b).
Proof.
  intros Hok Hm. destruct (hv_prevotes h r) as [vs|] eqn:E; [|discriminate]. cbn in Hm.
  eapply set_ok_maj; [|exact Hm]. apply (hv_get_ok off h r 1%N vs Hok (or_introl eq_refl)). exact E.
Qed.
Lemma commit_backed off h r b : hvs_ok off h -> maj23 (hv_precommits h r) = Some b ->
  two_thirds vals < pow_of vals (voted_for vals (hv_height h) r 2%N off b).
Proof.
  intros Hok Hm. destruct (hv_precommits h r) as [vs|] eqn:E; [|discriminate]. cbn in Hm.
  eapply set_ok_maj; [|exact Hm]. apply (hv_get_ok off h r 2%N vs Hok (or_intror eq_refl)). exact E.
Qed.

End Backed.
