(* Proofs about Model.Signer: no two different sign-bytes are ever released for one
   height/round/step, released signatures never go back in (height, round, step), and a fresh
   signature is released only after the record forbidding its contradiction is durable, and the
   record in memory is the one in the file after every operation ([SInv]) -
   for every sequence of requests, failing writes, crashes at any failpoint and restarts. *)
From Coq Require Import List NArith ZArith Lia Bool Sorted.
From AnnVerif Require Import Base.Bytes Model.Signer Proofs.BytesProofs.
Import ListNotations.
Open Scope Z_scope.

Definition hrs_lt (h1 r1 s1 h2 r2 s2 : Z) : Prop :=
  h1 < h2 \/ (h1 = h2 /\ (r1 < r2 \/ (r1 = r2 /\ s1 < s2))).

Lemma hrs_lt_irrefl h r s : ~ hrs_lt h r s h r s.
Proof. unfold hrs_lt. lia. Qed.

Lemma hrs_lt_trans h1 r1 s1 h2 r2 s2 h3 r3 s3 :
  hrs_lt h1 r1 s1 h2 r2 s2 -> hrs_lt h2 r2 s2 h3 r3 s3 -> hrs_lt h1 r1 s1 h3 r3 s3.
Proof. unfold hrs_lt. lia. Qed.

(* the hypotheses are the four tests of signBytesHRS (in [sign_step]) failing: then the request
   is strictly later than the last record *)
Lemma fresh_later H R S h r s :
  (h <? H) = false -> (H =? h) && (r <? R) = false ->
  (H =? h) && (R =? r) && (s <? S) = false -> (H =? h) && (R =? r) && (S =? s) = false ->
  hrs_lt H R S h r s.
Proof.
  intros E1 E2 E3 E4. apply Z.ltb_ge in E1. unfold hrs_lt.
  destruct (Z.eqb_spec H h) as [Eh|Eh]; [|left; lia]. right. split; [exact Eh|].
  cbn [andb] in E2, E3, E4. apply Z.ltb_ge in E2.
  destruct (Z.eqb_spec R r) as [Er|Er]; [|left; lia]. right. split; [exact Er|].
  cbn [andb] in E3, E4. apply Z.ltb_ge in E3. apply Z.eqb_neq in E4. lia.
Qed.

Lemma sorted_app_before {A} (R : A -> A -> Prop) pre x post :
  StronglySorted R (pre ++ x :: post) -> forall y, In y pre -> R y x.
Proof.
  induction pre as [|a pre IH]; intros Hs y Hy; [contradiction|].
  apply StronglySorted_inv in Hs as [Hs Ha]. destruct Hy as [<-|Hy]; [|exact (IH Hs y Hy)].
  eapply Forall_forall in Ha; [exact Ha|]. apply in_elt.
Qed.

Lemma sorted_total {A} (R : A -> A -> Prop) l : (forall x, R x x) -> StronglySorted R l ->
  forall x y, In x l -> In y l -> R x y \/ R y x.
Proof.
  intros Hrefl. induction 1 as [|a l Hs IH Ha]; intros x y Hx Hy; [contradiction|].
  rewrite Forall_forall in Ha.
  destruct Hx as [<-|Hx], Hy as [<-|Hy]; [left; apply Hrefl|left; exact (Ha y Hy)|right; exact (Ha x Hx)|exact (IH x y Hx Hy)].
Qed.

Section SignerProofs.
Variable sign : bytes -> bytes.

Record rel := mkRel { rl_h : Z; rl_r : Z; rl_s : Z; rl_b : bytes; rl_sig : bytes }.

Definition released_of (o : sop) (out : sout) : option rel :=
  match o, out with
  | SSign h r s b _, OReleased sg => Some (mkRel h r s b sg)
  | _, _ => None
  end.
Fixpoint releases (l : list (sop * sout)) : list rel :=
  match l with
  | [] => []
  | (o, out) :: t => match released_of o out with Some x => x :: releases t | None => releases t end
  end.

Definition covers (d : hrs) (x : rel) : Prop :=
  hrs_lt (rl_h x) (rl_r x) (rl_s x) (s_h d) (s_r d) (s_step d) \/
  (rl_h x = s_h d /\ rl_r x = s_r d /\ rl_s x = s_step d /\ s_bytes d = Some (rl_b x) /\ s_sig d = Some (rl_sig x)).

Definition rel_le (y x : rel) : Prop :=
  hrs_lt (rl_h y) (rl_r y) (rl_s y) (rl_h x) (rl_r x) (rl_s x) \/
  (rl_h y = rl_h x /\ rl_r y = rl_r x /\ rl_s y = rl_s x /\ rl_b y = rl_b x /\ rl_sig y = rl_sig x).

Lemma rel_le_refl x : rel_le x x.
Proof. right. repeat split. Qed.

Lemma rel_le_same_hrs y x : rel_le y x -> rl_h y = rl_h x -> rl_r y = rl_r x -> rl_s y = rl_s x ->
  rl_b y = rl_b x /\ rl_sig y = rl_sig x.
Proof.
  intros [Hlt|(_ & _ & _ & Hb & Hs)] E1 E2 E3; [|auto].
  rewrite E1, E2, E3 in Hlt. destruct (hrs_lt_irrefl _ _ _ Hlt).
Qed.

(* the record that releasing [x] leaves in memory and in the file *)
Definition rec_of (x : rel) : hrs := mkHRS (rl_h x) (rl_r x) (rl_s x) (Some (rl_sig x)) (Some (rl_b x)).

Lemma rec_of_covers x : covers (rec_of x) x.
Proof. right. repeat split. Qed.

Lemma covers_rec_of z x : covers (rec_of x) z -> rel_le z x.
Proof.
  intros [Hlt|(E1 & E2 & E3 & E4 & E5)]; [left; exact Hlt|right].
  cbn in E4, E5. injection E4 as E4. injection E5 as E5. auto.
Qed.

Lemma covers_later d d' z : covers d z ->
  d' = d \/ hrs_lt (s_h d) (s_r d) (s_step d) (s_h d') (s_r d') (s_step d') -> covers d' z.
Proof.
  intros Hc [->|Hlt]; [exact Hc|]. left. destruct Hc as [Hc|(E1 & E2 & E3 & _)].
  - exact (hrs_lt_trans _ _ _ _ _ _ _ _ _ Hc Hlt).
  - rewrite E1, E2, E3. exact Hlt.
Qed.

Definition SInv (st : signer) : Prop := vol st = dur st.

Definition step_ok (st : signer) (o : sop) (res : signer * sout) : Prop :=
  SInv (fst res) /\
  (dur (fst res) = dur st \/
   hrs_lt (s_h (dur st)) (s_r (dur st)) (s_step (dur st))
          (s_h (dur (fst res))) (s_r (dur (fst res))) (s_step (dur (fst res)))) /\
  forall x, released_of o (snd res) = Some x -> dur (fst res) = rec_of x.

Lemma quiet_ok d o out : released_of o out = None -> step_ok (mkSigner d d) o (mkSigner d d, out).
Proof. intro Hn. split; [reflexivity|]. split; [left; reflexivity|]. cbn [snd]. rewrite Hn. discriminate. Qed.

Lemma sstep_ok st o : SInv st -> step_ok st o (sstep sign st o).
Proof.
  destruct st as [v d]. unfold SInv. cbn [vol dur]. intros ->.
  destruct o as [h r s b m|]; cbn [sstep]; [|apply quiet_ok; reflexivity].
  unfold sign_step. cbn [vol dur].
  destruct (h <? s_h d) eqn:E1; [apply quiet_ok; reflexivity|].
  destruct ((s_h d =? h) && (r <? s_r d)) eqn:E2; [apply quiet_ok; reflexivity|].
  destruct ((s_h d =? h) && (s_r d =? r) && (s <? s_step d)) eqn:E3; [apply quiet_ok; reflexivity|].
  destruct ((s_h d =? h) && (s_r d =? r) && (s_step d =? s)) eqn:E4.
  - (* the request is the last record: its signature is released again if the bytes agree *)
    destruct (s_bytes d) as [lb|] eqn:Eb; [|apply quiet_ok; reflexivity].
    destruct (s_sig d) as [ls|] eqn:Es; [|apply quiet_ok; reflexivity].
    destruct (bytes_eqb lb b) eqn:Eq; [|apply quiet_ok; reflexivity].
    apply bytes_eqb_eq in Eq. apply andb_true_iff in E4 as [E4 Es3]. apply andb_true_iff in E4 as [Es1 Es2].
    apply Z.eqb_eq in Es1, Es2, Es3.
    split; [reflexivity|]. split; [left; reflexivity|]. intros x Hx. injection Hx as <-.
    destruct d. cbn in *. unfold rec_of. cbn. congruence.
  - (* a later request: signed, and released only when the save went through *)
    pose proof (fresh_later _ _ _ _ _ _ E1 E2 E3 E4) as Hlt.
    destruct m; try (apply quiet_ok; reflexivity).
    + split; [reflexivity|]. split; [right; exact Hlt|]. intros x Hx. injection Hx as <-. reflexivity.
    + split; [reflexivity|]. split; [right; exact Hlt|]. discriminate.
Qed.

(* the last conjunct carries the induction: a release is covered by the file right after it, so it
   is before-or-equal every later release *)
Lemma srun_spec ops : forall st, SInv st ->
  let '(st', outs) := srun sign st ops in
  SInv st' /\ StronglySorted rel_le (releases outs) /\ Forall (covers (dur st')) (releases outs) /\
  forall z, covers (dur st) z -> covers (dur st') z /\ Forall (rel_le z) (releases outs).
Proof.
  induction ops as [|o t IH]; intros st Hv; cbn [srun].
  - split; [exact Hv|]. split; [constructor|]. split; [constructor|]. intros z Hc. split; [exact Hc|constructor].
  - generalize (sstep_ok st o Hv). destruct (sstep sign st o) as [st1 out]. intros (Hv1 & Hd & Hr). cbn [fst snd] in *.
    specialize (IH st1 Hv1). destruct (srun sign st1 t) as [st2 outs]. destruct IH as (I1 & I2 & I3 & I4).
    assert (Hz : forall z, covers (dur st) z -> covers (dur st1) z) by (intros z Hc; exact (covers_later _ _ z Hc Hd)).
    cbn [releases]. destruct (released_of o out) as [x|].
    + specialize (Hr x eq_refl). destruct (I4 x) as [Hx1 Hx2]; [rewrite Hr; apply rec_of_covers|].
      split; [exact I1|]. split; [constructor; assumption|]. split; [constructor; assumption|].
      intros z Hc. apply Hz in Hc. destruct (I4 z Hc) as [J1 J2]. split; [exact J1|].
      constructor; [|exact J2]. apply covers_rec_of. rewrite <- Hr. exact Hc.
    + split; [exact I1|]. split; [exact I2|]. split; [exact I3|]. intros z Hc. apply I4, Hz, Hc.
Qed.

Theorem srun_SInv ops st : SInv st -> SInv (fst (srun sign st ops)).
Proof.
  intro Hv. generalize (srun_spec ops st Hv). destruct (srun sign st ops) as [st' outs]. intros (H & _). exact H.
Qed.

Theorem srun_ordered ops : forall st, SInv st ->
  forall pre x post, releases (snd (srun sign st ops)) = pre ++ x :: post ->
  forall y, In y pre -> rel_le y x.
Proof.
  intros st Hv pre x post E. apply (sorted_app_before rel_le pre x post). rewrite <- E.
  generalize (srun_spec ops st Hv). destruct (srun sign st ops) as [st' outs]. intros (_ & Hs & _). exact Hs.
Qed.

Theorem no_double_sign ops x y :
  In x (releases (snd (srun sign signer0 ops))) -> In y (releases (snd (srun sign signer0 ops))) ->
  rl_h x = rl_h y -> rl_r x = rl_r y -> rl_s x = rl_s y -> rl_b x = rl_b y /\ rl_sig x = rl_sig y.
Proof.
  generalize (srun_spec ops signer0 eq_refl). destruct (srun sign signer0 ops) as [st outs]. intros (_ & Hs & _).
  cbn [snd]. intros Hx Hy E1 E2 E3.
  destruct (sorted_total rel_le _ rel_le_refl Hs x y Hx Hy) as [H|H].
  - exact (rel_le_same_hrs x y H E1 E2 E3).
  - destruct (rel_le_same_hrs y x H (eq_sym E1) (eq_sym E2) (eq_sym E3)). auto.
Qed.

Theorem durable_before_release st o x : SInv st ->
  released_of o (snd (sstep sign st o)) = Some x -> covers (dur (fst (sstep sign st o))) x.
Proof. intros Hv Hx. destruct (sstep_ok st o Hv) as (_ & _ & Hr). rewrite (Hr x Hx). apply rec_of_covers. Qed.

End SignerProofs.
