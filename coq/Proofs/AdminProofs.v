(* Proofs about Model.AdminOp (gemmill/plugin/admin_op.go), for C14.  CheckMajor23 passes only if
   distinct current validators of positive power, each with a valid signature, hold more than two
   thirds of the total power ([check_major23_sound], through the loop invariant
   [tally_sigs_bound]).  ExecTX appends a request to the pending list only if every check passed
   and the request is not in effect already, and otherwise changes nothing but the total-power
   cache ([exec_tx_spec]; acceptance, rejection and [replay_noop] are read off it).
   updateValidators never fails and keeps the set sorted: it is a fold of a total function
   ([update_validators_fold]).  After a block whose only pending change is a request, the request
   is in effect ([applied_settles]). *)
From Coq Require Import List NArith ZArith Lia Bool Sorted.
From AnnVerif Require Import Base.Res Base.Bytes Model.ValSet Model.AdminOp
  Proofs.BytesProofs Proofs.PowerSum Proofs.ValSetProofs.
Import ListNotations.
Open Scope Z_scope.

(* GetByAddress as one recursion over the list: [search] stops at the first address at or above [a] *)
Fixpoint find_addr (l : list val16) (a : bytes) : option val16 :=
  match l with
  | [] => None
  | v :: t => if bytes_leb a (va_addr v) then (if bytes_eqb (va_addr v) a then Some v else None) else find_addr t a
  end.

Lemma get_by_address_find vs a : get_by_address vs a = find_addr (vl vs) a.
Proof.
  unfold get_by_address. generalize (vl vs) as l. induction l as [|v t IH]; [reflexivity|].
  rewrite search_cons. cbn [find_addr]. destruct (bytes_leb a (va_addr v)); [reflexivity|]. cbn [nth_error]. exact IH.
Qed.

Lemma bytes_leb_refl a : bytes_leb a a = true.
Proof. unfold bytes_leb. rewrite (proj2 (bytes_cmp_eq a a) eq_refl). reflexivity. Qed.

Lemma blt_leb a b : blt a b -> bytes_leb a b = true.
Proof. unfold blt, bytes_leb. intros ->. reflexivity. Qed.

Lemma blt_not_leb a b : blt a b -> bytes_leb b a = false.
Proof. unfold blt, bytes_leb. rewrite (bytes_cmp_antisym b a). intros ->. reflexivity. Qed.

Lemma blt_not_eqb a b : blt a b -> bytes_eqb b a = false.
Proof.
  intro H. destruct (bytes_eqb b a) eqn:E; [|reflexivity].
  apply bytes_eqb_eq in E. subst b. destruct (blt_irrefl a H).
Qed.

Lemma find_addr_head v t : find_addr (v :: t) (va_addr v) = Some v.
Proof. cbn [find_addr]. rewrite bytes_leb_refl, bytes_eqb_refl. reflexivity. Qed.

Lemma find_addr_some l a v : find_addr l a = Some v -> In v l /\ va_addr v = a.
Proof.
  induction l as [|w t IH]; [discriminate|]. cbn [find_addr].
  destruct (bytes_leb a (va_addr w)).
  - destruct (bytes_eqb (va_addr w) a) eqn:E; [|discriminate]. intro H; injection H as <-. apply bytes_eqb_eq in E. split; [left; reflexivity|exact E].
  - intro H. destruct (IH H). split; [right; assumption|assumption].
Qed.

Lemma find_addr_in l v : sorted l -> In v l -> find_addr l (va_addr v) = Some v.
Proof.
  induction l as [|w t IH]; intros Hs Hin; [contradiction|].
  apply StronglySorted_inv in Hs as [Hst Hall]. destruct Hin as [->|Hin]; [apply find_addr_head|].
  cbn [find_addr]. rewrite blt_not_leb; [exact (IH Hst Hin)|].
  eapply Forall_forall in Hall; [exact Hall|]. apply in_map. exact Hin.
Qed.

Fixpoint wsum (P : val16 -> bool) (l : list val16) : Z :=
  match l with [] => 0 | v :: t => (if P v then va_power v else 0) + wsum P t end.

Definition nonneg16 (l : list val16) : Prop := forall v, In v l -> 0 <= va_power v.

Lemma nonneg16_cons v t : nonneg16 (v :: t) -> 0 <= va_power v /\ nonneg16 t.
Proof. intro H. split; [apply H; left; reflexivity|intros w Hw; apply H; right; exact Hw]. Qed.

Lemma wsum_nonneg P l : nonneg16 l -> 0 <= wsum P l.
Proof.
  induction l as [|v t IH]; intro Hn; cbn [wsum]; [lia|].
  apply nonneg16_cons in Hn as [Hv Hn]. specialize (IH Hn). destruct (P v); lia.
Qed.

Lemma wsum_mono P Q l : nonneg16 l -> (forall v, In v l -> P v = true -> Q v = true) -> wsum P l <= wsum Q l.
Proof.
  induction l as [|v t IH]; intros Hn H; cbn [wsum]; [lia|].
  apply nonneg16_cons in Hn as [Hv Hn]. specialize (IH Hn (fun w Hw => H w (or_intror Hw))).
  destruct (P v) eqn:EP; [rewrite (H v (or_introl eq_refl) EP); lia|destruct (Q v); lia].
Qed.

Lemma wsum_ext P Q l : (forall v, In v l -> P v = Q v) -> wsum P l = wsum Q l.
Proof.
  induction l as [|v t IH]; intro H; cbn [wsum]; [reflexivity|].
  rewrite (H v (or_introl eq_refl)), (IH (fun w Hw => H w (or_intror Hw))). reflexivity.
Qed.

Lemma wsum_true l : wsum (fun _ => true) l = Fairness.sumZ (powers l).
Proof. induction l as [|v t IH]; [reflexivity|]. cbn [wsum]. rewrite IH. reflexivity. Qed.

Lemma sum_power_wsum l : nonneg16 l -> wsum (fun _ => true) l < 9223372036854775808 -> sum_power l = wsum (fun _ => true) l.
Proof.
  intros Hn Hb. pose proof (wsum_nonneg (fun _ => true) l Hn). rewrite wsum_true in *.
  unfold sum_power. rewrite sum_power_fold; [lia|exact Hn|lia|lia].
Qed.

Definition signed_by (sigs : list siginfo) (v : val16) : bool :=
  (0 <? va_power v) && existsb (fun s => bytes_eqb (si_addr s) (va_addr v) && si_ok s) sigs.

Definition uncounted (counted : list bytes) (v : val16) : bool := negb (mem_addr (va_addr v) counted).

Lemma signed_by_cons s t v : signed_by t v = true -> signed_by (s :: t) v = true.
Proof.
  unfold signed_by. cbn [existsb]. intro H. apply andb_true_iff in H as [-> ->]. apply orb_true_r.
Qed.

Lemma uncounted_cons a c w : uncounted (a :: c) w = negb (bytes_eqb a (va_addr w)) && uncounted c w.
Proof. unfold uncounted. cbn [mem_addr]. apply negb_orb. Qed.

Lemma wsum_count P c l v : NoDup (map va_addr l) -> In v l -> uncounted c v = true ->
  wsum (fun w => P w && uncounted c w) l =
  (if P v then va_power v else 0) + wsum (fun w => P w && uncounted (va_addr v :: c) w) l.
Proof.
  intros Hnd Hin Hu.
  assert (Hother : forall w, va_addr v <> va_addr w -> uncounted (va_addr v :: c) w = uncounted c w).
  { intros w Hw. rewrite uncounted_cons. destruct (bytes_eqb (va_addr v) (va_addr w)) eqn:E; [|reflexivity].
    apply bytes_eqb_eq in E. contradiction. }
  induction l as [|w t IH]; [contradiction|].
  cbn [map] in Hnd. apply NoDup_cons_iff in Hnd as [Hw Ht]. cbn [wsum]. destruct Hin as [->|Hin].
  - rewrite uncounted_cons, bytes_eqb_refl, Hu, andb_true_r. cbn [negb andb]. rewrite andb_false_r.
    rewrite (wsum_ext (fun w => P w && uncounted (va_addr v :: c) w) (fun w => P w && uncounted c w) t); [lia|].
    intros w Hin. rewrite Hother; [reflexivity|]. intro E. apply Hw. rewrite E. apply in_map. exact Hin.
  - rewrite (IH Ht Hin), (Hother w); [lia|]. intro E. apply Hw. rewrite <- E. apply in_map. exact Hin.
Qed.

(* the loop invariant of CheckMajor23: [acc] stays below the total (so [wrap64] does nothing)
   because it is the power of validators already counted; the power not yet counted is written
   with [true && _] to be [wsum_count] at [fun _ => true] *)
Lemma tally_sigs_bound vs : sorted (vl vs) -> nonneg16 (vl vs) -> wsum (fun _ => true) (vl vs) < 4611686018427387904 ->
  forall sigs counted acc, 0 <= acc ->
  acc + wsum (fun v => true && uncounted counted v) (vl vs) <= wsum (fun _ => true) (vl vs) ->
  acc <= tally_sigs vs sigs counted acc <=
    acc + wsum (fun v => signed_by sigs v && uncounted counted v) (vl vs).
Proof.
  intros Hs Hn Hb. induction sigs as [|s t IH]; intros counted acc Hacc Hroom.
  - cbn [tally_sigs]. pose proof (wsum_nonneg (fun v => signed_by [] v && uncounted counted v) (vl vs) Hn). lia.
  - assert (Hmono : forall c, wsum (fun v => signed_by t v && uncounted c v) (vl vs) <=
                              wsum (fun v => signed_by (s :: t) v && uncounted c v) (vl vs)).
    { intro c. apply wsum_mono; [exact Hn|]. intros v _ Hv. apply andb_true_iff in Hv as [H1 ->].
      rewrite (signed_by_cons s t v H1). reflexivity. }
    pose proof (IH counted acc Hacc Hroom) as Hskip. specialize (Hmono counted) as Hm.
    cbn [tally_sigs]. rewrite get_by_address_find.
    destruct (find_addr (vl vs) (si_addr s)) as [v|] eqn:Ef; [|lia].
    destruct (0 <? va_power v) eqn:Ep; [|lia].
    destruct (mem_addr (va_addr v) counted) eqn:Em; [lia|].
    destruct (si_ok s) eqn:Eok; [|lia].
    (* the branch that counts v *)
    destruct (find_addr_some _ _ _ Ef) as [Hin Haddr].
    assert (Hu : uncounted counted v = true) by (unfold uncounted; rewrite Em; reflexivity).
    assert (Hv : signed_by (s :: t) v = true).
    { unfold signed_by. cbn [existsb]. rewrite Ep, Haddr, bytes_eqb_refl, Eok. reflexivity. }
    pose proof (wsum_count (fun _ => true) counted _ v (sorted_nodup _ Hs) Hin Hu) as Hc1.
    pose proof (wsum_count (signed_by (s :: t)) counted _ v (sorted_nodup _ Hs) Hin Hu) as Hc2.
    rewrite Hv in Hc2. cbv beta iota in Hc1.
    pose proof (wsum_nonneg (fun w => true && uncounted (va_addr v :: counted) w) (vl vs) Hn).
    specialize (Hmono (va_addr v :: counted)). apply Z.ltb_lt in Ep.
    rewrite wrap64_small by lia.
    specialize (IH (va_addr v :: counted) (acc + va_power v)). lia.
Qed.

(* the total has to be below 2^62: CheckMajor23 doubles it in an int64; the total-power cache is
   either empty (0) or right *)
Definition wf_vals (vs : valset) : Prop :=
  sorted (vl vs) /\ nonneg16 (vl vs) /\ wsum (fun _ => true) (vl vs) < 4611686018427387904 /\
  (v_tvp vs = 0 \/ v_tvp vs = wsum (fun _ => true) (vl vs)).

Lemma total_vp_wf vs : wf_vals vs -> fst (total_vp vs) = wsum (fun _ => true) (vl vs).
Proof.
  intros (_ & Hn & Hb & Hc). unfold total_vp. destruct (v_tvp vs =? 0) eqn:E; cbn [fst].
  - apply sum_power_wsum; [exact Hn|lia].
  - destruct Hc as [Hc|Hc]; [rewrite Hc in E; discriminate|exact Hc].
Qed.

Lemma check_major23_vl vs sigs : vl (snd (check_major23 vs sigs)) = vl vs.
Proof.
  unfold check_major23, total_vp. destruct (v_tvp vs =? 0); reflexivity.
Qed.

Theorem check_major23_sound vs sigs : wf_vals vs ->
  fst (check_major23 vs sigs) = true ->
  wsum (fun _ => true) (vl vs) * 2 / 3 < wsum (signed_by sigs) (vl vs).
Proof.
  intros Hwf. pose proof (total_vp_wf vs Hwf) as Ht. destruct Hwf as (Hs & Hn & Hb & _).
  unfold check_major23. destruct (total_vp vs) as [tv vs']. cbn [fst] in *. subst tv.
  intro Hlt. apply Z.ltb_lt in Hlt.
  pose proof (wsum_nonneg (fun _ => true) (vl vs) Hn) as H0.
  rewrite wrap64_small in Hlt by lia. rewrite Z.quot_div_nonneg in Hlt by lia.
  pose proof (tally_sigs_bound vs Hs Hn Hb sigs [] 0 ltac:(lia) ltac:(apply (wsum_mono _ _ _ Hn); reflexivity)) as Hbound.
  assert (Hle : wsum (fun v => signed_by sigs v && uncounted [] v) (vl vs) <= wsum (signed_by sigs) (vl vs)).
  { apply wsum_mono; [exact Hn|]. intros v _ Hv. apply andb_true_iff in Hv as [H1 _]. exact H1. }
  lia.
Qed.

Definition checks_pass (st : adminst) (c : admincmd) (from : bytes) (nonce : Z) : Prop :=
  fst (check_major23 (ad_vals st) (ac_sigs c)) = true /\
  ac_type_ok c = true /\ ac_parse_ok c = true /\ from = at_from (ac_attr c) /\
  u64 (at_nonce (ac_attr c) + 1) = nonce.

Definition settled (vs : valset) (a : vattr) : Prop :=
  match at_cmd a with
  | CAdd => find_addr (vl vs) (at_paddr a) <> None
  | CUpdate => exists v, find_addr (vl vs) (at_paddr a) = Some v /\ va_power v = at_power a
  | CRemove => find_addr (vl vs) (at_paddr a) = None
  | COther => True
  end.

Lemma exec_tx_spec st c from nonce :
  let vs1 := snd (check_major23 (ad_vals st) (ac_sigs c)) in
  (fst (exec_tx st c from nonce) = mkAdmin vs1 (ad_changed st) /\
   (snd (exec_tx st c from nonce) = 0%N -> checks_pass st c from nonce)) \/
  (exec_tx st c from nonce = (mkAdmin vs1 (ad_changed st ++ [ac_attr c]), 0%N) /\
   checks_pass st c from nonce /\ ~ settled (ad_vals st) (ac_attr c)).
Proof.
  unfold exec_tx, checks_pass, settled. generalize (check_major23_vl (ad_vals st) (ac_sigs c)).
  destruct (check_major23 (ad_vals st) (ac_sigs c)) as [ok vs1]. cbn [fst snd]. intros <-. rewrite get_by_address_find.
  destruct ok; cbn [negb]; [|left; split; [reflexivity|discriminate]].
  destruct (ac_type_ok c); cbn [negb]; [|left; split; [reflexivity|discriminate]].
  destruct (ac_parse_ok c); cbn [negb]; [|left; split; [reflexivity|discriminate]].
  destruct (bytes_eqb from (at_from (ac_attr c))) eqn:Ef; cbn [negb]; [|left; split; [reflexivity|discriminate]].
  destruct (u64 (at_nonce (ac_attr c) + 1) =? nonce) eqn:En; cbn [negb]; [|left; split; [reflexivity|discriminate]].
  apply bytes_eqb_eq in Ef. apply Z.eqb_eq in En.
  assert (Hp : true = true /\ true = true /\ true = true /\ from = at_from (ac_attr c) /\ u64 (at_nonce (ac_attr c) + 1) = nonce) by auto.
  destruct (at_cmd (ac_attr c)).
  - destruct (ac_selfsign_ok c); cbn [negb]; [|left; split; [reflexivity|discriminate]].
    destruct (find_addr (vl vs1) (at_paddr (ac_attr c))).
    + left. split; [reflexivity|intros _; exact Hp].
    + right. split; [reflexivity|]. split; [exact Hp|]. intro H. exact (H eq_refl).
  - destruct (find_addr (vl vs1) (at_paddr (ac_attr c))) as [v|]; [|left; split; [reflexivity|discriminate]].
    destruct (Z.eqb_spec (va_power v) (at_power (ac_attr c))) as [Ep|Ep].
    + left. split; [reflexivity|intros _; exact Hp].
    + right. split; [reflexivity|]. split; [exact Hp|]. intros (v' & Hv' & Hpw). injection Hv' as <-. contradiction.
  - destruct (find_addr (vl vs1) (at_paddr (ac_attr c))).
    + right. split; [reflexivity|]. split; [exact Hp|discriminate].
    + left. split; [reflexivity|intros _; exact Hp].
  - left. split; [reflexivity|discriminate].
Qed.

Theorem exec_tx_accept st c from nonce st' :
  wf_vals (ad_vals st) ->
  exec_tx st c from nonce = (st', 0%N) ->
  wsum (fun _ => true) (vl (ad_vals st)) * 2 / 3 < wsum (signed_by (ac_sigs c)) (vl (ad_vals st)) /\
  ac_type_ok c = true /\ ac_parse_ok c = true /\ from = at_from (ac_attr c) /\
  u64 (at_nonce (ac_attr c) + 1) = nonce.
Proof.
  intros Hwf E.
  assert (Hp : checks_pass st c from nonce).
  { destruct (exec_tx_spec st c from nonce) as [[_ H]|(_ & H & _)]; [|exact H]. apply H. rewrite E. reflexivity. }
  destruct Hp as (Hm & Hrest). split; [exact (check_major23_sound _ _ Hwf Hm)|exact Hrest].
Qed.

Theorem exec_tx_reject st c from nonce st' code :
  exec_tx st c from nonce = (st', code) -> code <> 0%N ->
  ad_changed st' = ad_changed st /\ vl (ad_vals st') = vl (ad_vals st).
Proof.
  intros E Hc. destruct (exec_tx_spec st c from nonce) as [[H _]|[H _]]; rewrite E in H; [|congruence].
  cbn [fst] in H. subst st'. split; [reflexivity|apply check_major23_vl].
Qed.

Theorem exec_tx_pending st c from nonce st' code :
  exec_tx st c from nonce = (st', code) ->
  ad_changed st' = ad_changed st \/ ad_changed st' = ad_changed st ++ [ac_attr c].
Proof.
  intros E. destruct (exec_tx_spec st c from nonce) as [[H _]|[H _]]; rewrite E in H.
  - left. cbn [fst] in H. subst st'. reflexivity.
  - right. injection H as -> _. reflexivity.
Qed.

Theorem replay_noop st c from nonce st' code :
  settled (ad_vals st) (ac_attr c) -> exec_tx st c from nonce = (st', code) ->
  ad_changed st' = ad_changed st /\ vl (ad_vals st') = vl (ad_vals st).
Proof.
  intros Hset E. destruct (exec_tx_spec st c from nonce) as [[H _]|(_ & _ & H)]; [|contradiction].
  rewrite E in H. cbn [fst] in H. subst st'. split; [reflexivity|apply check_major23_vl].
Qed.

Lemma add_absent vs x : get_by_address vs (va_addr x) = None ->
  snd (add vs x) = true /\ find_addr (vl (fst (add vs x))) (va_addr x) = Some x.
Proof.
  rewrite get_by_address_find. destruct (add_spec vs x) as [-> ->]. generalize (vl vs) as l.
  induction l as [|w t IH]; cbn [find_addr add_rec]; [intros _; split; [reflexivity|apply find_addr_head]|].
  destruct (bytes_leb (va_addr x) (va_addr w)) eqn:E1.
  - destruct (bytes_eqb (va_addr w) (va_addr x)); [discriminate|]. intros _. split; [reflexivity|apply find_addr_head].
  - intro H. apply IH in H. destruct (add_rec t x) as [t' b]. cbn [fst snd find_addr] in *. rewrite E1. exact H.
Qed.

Lemma update_present vs x v : get_by_address vs (va_addr x) = Some v ->
  snd (update vs x) = true /\ find_addr (vl (fst (update vs x))) (va_addr x) = Some x.
Proof.
  rewrite get_by_address_find. destruct (update_spec vs x) as [-> ->]. generalize (vl vs) as l.
  induction l as [|w t IH]; cbn [find_addr update_rec]; [discriminate|].
  destruct (bytes_leb (va_addr x) (va_addr w)) eqn:E1.
  - destruct (bytes_eqb (va_addr w) (va_addr x)); [|discriminate]. intros _. split; [reflexivity|apply find_addr_head].
  - intro H. apply IH in H. destruct (update_rec t x) as [t' b]. cbn [fst snd find_addr] in *. rewrite E1. exact H.
Qed.

Lemma remove_absent vs a : sorted (vl vs) -> find_addr (vl (fst (remove vs a))) a = None.
Proof.
  destruct (remove_spec vs a) as [-> _]. generalize (vl vs) as l.
  induction l as [|w t IH]; intro Hs; [reflexivity|].
  apply StronglySorted_inv in Hs as [Hst Hall]. cbn [remove_rec].
  destruct (bytes_leb a (va_addr w)) eqn:E1.
  - destruct (bytes_eqb (va_addr w) a) eqn:E2; cbn [fst find_addr]; [|rewrite E1, E2; reflexivity].
    (* w goes; the search stops at the next validator, whose address is above a *)
    apply bytes_eqb_eq in E2. subst a. destruct t as [|x t]; [reflexivity|].
    apply Forall_inv in Hall. cbn [find_addr]. rewrite (blt_leb _ _ Hall), (blt_not_eqb _ _ Hall). reflexivity.
  - specialize (IH Hst). destruct (remove_rec t a) as [t' b]. cbn [fst find_addr] in *. rewrite E1. exact IH.
Qed.

Definition power_at (l : list val16) (a : bytes) : option Z := option_map va_power (find_addr l a).

(* Add and Update are one case of updateValidators: the address gets the requested power *)
Definition set_power (next : valset) (a : vattr) : valset :=
  match get_by_address next (at_paddr a) with
  | None => fst (add next (mkVal (at_paddr a) (at_pub a) (at_power a) 0 (0 <? at_power a)))
  | Some v => if va_power v =? at_power a then next
              else fst (update next (mkVal (va_addr v) (va_pub v) (at_power a) (va_accum v) (0 <? at_power a)))
  end.

(* neither call fails, so the error branches of that case are dead: whatever [K] is done next
   is done with [set_power next a] *)
Lemma set_power_spec next a :
  (forall K : valset -> res valset,
   match get_by_address next (at_paddr a) with
   | None => let '(n1, added) := add next (mkVal (at_paddr a) (at_pub a) (at_power a) 0 (0 <? at_power a)) in
             if added then K n1 else Err 1
   | Some v => if negb (va_power v =? at_power a) then
                 let '(n1, upd) := update next (mkVal (va_addr v) (va_pub v) (at_power a) (va_accum v) (0 <? at_power a)) in
                 if upd then K n1 else Err 2
               else K next
   end = K (set_power next a)) /\
  (sorted (vl next) ->
   sorted (vl (set_power next a)) /\ power_at (vl (set_power next a)) (at_paddr a) = Some (at_power a)).
Proof.
  unfold set_power, power_at. destruct (get_by_address next (at_paddr a)) as [v|] eqn:Eg.
  - destruct (Z.eqb_spec (va_power v) (at_power a)) as [Ep|Ep]; cbn [negb].
    + split; [reflexivity|]. intro Hs. split; [exact Hs|]. rewrite <- get_by_address_find, Eg. cbn. rewrite Ep. reflexivity.
    + assert (Hva : va_addr v = at_paddr a) by (rewrite get_by_address_find in Eg; apply (find_addr_some _ _ _ Eg)).
      set (x := mkVal (va_addr v) (va_pub v) (at_power a) (va_accum v) (0 <? at_power a)).
      rewrite <- Hva in *. destruct (update_present next x v Eg) as [Hu Hf]. pose proof (update_sorted next x) as Hso.
      destruct (update next x) as [n1 upd]. cbn [fst snd x va_addr] in *. subst upd.
      split; [reflexivity|]. intro Hs. split; [exact (Hso Hs)|]. rewrite Hf. reflexivity.
  - set (x := mkVal (at_paddr a) (at_pub a) (at_power a) 0 (0 <? at_power a)).
    destruct (add_absent next x Eg) as [Hu Hf]. pose proof (add_sorted next x) as Hso.
    destruct (add next x) as [n1 added]. cbn [fst snd x va_addr] in *. subst added.
    split; [reflexivity|]. intro Hs. split; [exact (Hso Hs)|]. rewrite Hf. reflexivity.
Qed.

Definition apply1 (next : valset) (a : vattr) : valset :=
  match at_cmd a with
  | CAdd | CUpdate => set_power next a
  | CRemove => fst (remove next (at_paddr a))
  | COther => next
  end.

Lemma update_validators_cons next a t : update_validators next (a :: t) = update_validators (apply1 next a) t.
Proof.
  unfold apply1. cbn [update_validators]. destruct (at_cmd a).
  - exact (proj1 (set_power_spec next a) (fun n => update_validators n t)).
  - exact (proj1 (set_power_spec next a) (fun n => update_validators n t)).
  - destruct (remove next (at_paddr a)). reflexivity.
  - reflexivity.
Qed.

Lemma apply1_spec next a : sorted (vl next) ->
  sorted (vl (apply1 next a)) /\
  power_at (vl (apply1 next a)) (at_paddr a) =
  match at_cmd a with
  | CAdd | CUpdate => Some (at_power a)
  | CRemove => None
  | COther => power_at (vl next) (at_paddr a)
  end.
Proof.
  intro Hs. unfold apply1. destruct (at_cmd a).
  - exact (proj2 (set_power_spec next a) Hs).
  - exact (proj2 (set_power_spec next a) Hs).
  - split; [apply remove_sorted; exact Hs|]. unfold power_at. rewrite remove_absent by exact Hs. reflexivity.
  - split; [exact Hs|reflexivity].
Qed.

(* so applying the pending list never fails; in particular removing a validator twice in one
   block is a no-op (F-14c) *)
Lemma update_validators_fold changed : forall next, update_validators next changed = Ok (fold_left apply1 changed next).
Proof.
  induction changed as [|a t IH]; intro next; [reflexivity|].
  rewrite update_validators_cons. apply IH.
Qed.

Theorem update_validators_total changed : forall next, exists next', update_validators next changed = Ok next'.
Proof. intro next. eexists. apply update_validators_fold. Qed.

Lemma update_validators_sorted changed : forall next next', sorted (vl next) ->
  update_validators next changed = Ok next' -> sorted (vl next').
Proof.
  intros next next' Hs E. rewrite update_validators_fold in E. injection E as <-.
  revert next Hs. induction changed as [|a t IH]; intros next Hs; [exact Hs|].
  apply IH. apply (apply1_spec next a Hs).
Qed.

Theorem end_block_sorted st st' : sorted (vl (ad_vals st)) -> end_block st = Ok st' ->
  sorted (vl (ad_vals st')) /\ ad_changed st' = [].
Proof.
  unfold end_block. intro Hs.
  destruct (update_validators (ad_vals st) (ad_changed st)) as [next|e|w] eqn:Eu; try discriminate.
  destruct (increment next 1) as [next'|e|w] eqn:Ei; try discriminate.
  intro E. injection E as <-. cbn [ad_vals ad_changed]. split; [|reflexivity].
  eapply increment_sorted; [exact Ei|]. eapply update_validators_sorted; eauto.
Qed.

Lemma settled_power vs a : settled vs a <->
  match at_cmd a with
  | CAdd => power_at (vl vs) (at_paddr a) <> None
  | CUpdate => power_at (vl vs) (at_paddr a) = Some (at_power a)
  | CRemove => power_at (vl vs) (at_paddr a) = None
  | COther => True
  end.
Proof.
  unfold settled, power_at. destruct (at_cmd a); [| | |tauto];
    destruct (find_addr (vl vs) (at_paddr a)) as [v|]; cbn [option_map]; split; try discriminate; try tauto.
  - intros (v' & Hv' & Hp). injection Hv' as <-. rewrite Hp. reflexivity.
  - intro H. injection H as H. eauto.
  - intros (v' & Hv' & _). discriminate.
Qed.

Lemma incr_once_powers vs vs' : incr_once vs = Ok vs' -> map va_power (vl vs') = map va_power (vl vs).
Proof.
  unfold incr_once. destruct (vl vs) as [|v0 t0] eqn:El; [discriminate|]. rewrite <- El.
  destruct (total_vp _) as [t vs1]. intro E. injection E as <-. cbn [vl].
  change (map va_power ?l) with (powers l). rewrite powers_map_nth by reflexivity. unfold powers. rewrite map_map. reflexivity.
Qed.

Lemma power_at_same l : forall l' a, map va_addr l' = map va_addr l -> map va_power l' = map va_power l ->
  power_at l' a = power_at l a.
Proof.
  unfold power_at. induction l as [|v t IH]; intros [|v' t'] a Ha Hp; try discriminate; [reflexivity|].
  injection Ha as Ha1 Ha2. injection Hp as Hp1 Hp2. cbn [find_addr]. rewrite Ha1.
  destruct (bytes_leb a (va_addr v)); [|exact (IH t' a Ha2 Hp2)].
  destruct (bytes_eqb (va_addr v) a); cbn [option_map]; congruence.
Qed.

Lemma power_at_increment vs t vs' a : increment vs t = Ok vs' -> power_at (vl vs') a = power_at (vl vs) a.
Proof.
  unfold increment. generalize (Z.to_nat t) as n. intro n. revert vs.
  induction n as [|n IH]; intros vs; cbn [incr_n]; [intro E; injection E as <-; reflexivity|].
  destruct (incr_once vs) as [vs1|e|w] eqn:E1; try discriminate. intro E. rewrite (IH _ E).
  apply power_at_same; [exact (incr_once_addrs _ _ E1)|exact (incr_once_powers _ _ E1)].
Qed.

Theorem applied_settles vs a vs' :
  sorted (vl vs) -> end_block (mkAdmin vs [a]) = Ok vs' -> settled (ad_vals vs') a.
Proof.
  intros Hs. unfold end_block. cbn [ad_vals ad_changed]. rewrite update_validators_fold. cbn [fold_left].
  destruct (increment (apply1 vs a) 1) as [n2|e|w] eqn:Ei; try discriminate. intro E. injection E as <-. cbn [ad_vals].
  apply settled_power. rewrite (power_at_increment _ _ _ _ Ei), (proj2 (apply1_spec vs a Hs)).
  destruct (at_cmd a); [discriminate|reflexivity|reflexivity|exact I].
Qed.
