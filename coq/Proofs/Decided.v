(* A decided node stays decided.  Once a node of Model/Node.v is in the commit step - it holds +2/3
   precommits for a block and may still wait for the block - no input takes it out of that step
   within the height: proposals, parts and votes of any round, and the timeouts of rounds it has
   reached (configuration without skip-commit).  This is what the test cs.Step < RoundStepCommit at
   the three round-skip sites of addVote is for (fix F-12a in /repo): without it +2/3 of any prevotes
   (or precommits, or nil precommits) of a later round moved the node on, and the part set of the
   decided block was lost.
   The commit step is not kept by every action: +2/3 precommits for a block in a later round take a
   decided node through that round into its commit step.  So the statement is about addVote as a
   whole, over its named pieces, and not read off the walk of Proofs/NodeSteps.v. *)
From Coq Require Import List NArith ZArith Bool Lia.
From AnnVerif Require Import Base.Res Model.VoteSet Model.Node
 Proofs.NodeProofs Proofs.NodeSteps.
Import ListNotations.
Open Scope Z_scope.

Lemma finalize_same c h n n' o : finalize_commit c h n = Ok (n', o) -> height n' = height n -> n' = n.
Proof.
  intros E Hh. apply finalize_commit_next in E as [[-> _]|(Hn & _)]; [reflexivity|lia].
Qed.

Lemma try_finalize_same c h n n' o : try_finalize_commit c h n = Ok (n', o) -> height n' = height n -> n' = n.
Proof. intro E. apply try_finalize_commit_inv in E as [[-> _]|E]; [reflexivity|apply (finalize_same _ _ _ _ _ E)]. Qed.

Lemma enter_commit_decided c h cr n n' o : enter_commit c h cr n = Ok (n', o) -> height n = h -> height n' = height n ->
  8 <= step n'.
Proof.
  intros E Hn Hh. apply enter_commit_inv in E as [(-> & _ & Eg)|(p & b & ps & E)].
  - rewrite Hn, Z.eqb_refl in Eg. cbn [negb orb] in Eg. apply Z.leb_le in Eg. exact Eg.
  - apply try_finalize_same in E; [|exact Hh]. subst n'. cbn. lia.
Qed.

Lemma enr_noop h r n n' o : enter_new_round h r n = Ok (n', o) -> r <= round n -> 8 <= step n -> n' = n.
Proof.
  unfold enter_new_round. intros E Hr Hs.
  replace (negb (height n =? h) || (r <? round n) || ((round n =? r) && negb (step n =? 1))) with true in E;
    [injection E as <- _; reflexivity|].
  symmetry. destruct (height n =? h); [|reflexivity]. cbn [negb orb].
  destruct (Z.ltb_spec r (round n)); [reflexivity|]. cbn [orb].
  replace (round n =? r) with true by (symmetry; apply Z.eqb_eq; lia).
  replace (step n =? 1) with false by (symmetry; apply Z.eqb_neq; lia). reflexivity.
Qed.

Lemma enter_prevote_noop h n n' o : enter_prevote h (round n) n = Ok (n', o) -> 8 <= step n -> n' = n.
Proof.
  unfold enter_prevote. intros E Hs.
  replace (negb (height n =? h) || (round n <? round n) || ((round n =? round n) && (4 <=? step n))) with true in E;
    [injection E as <- _; reflexivity|].
  symmetry. rewrite Z.eqb_refl. replace (4 <=? step n) with true by (symmetry; apply Z.leb_le; lia).
  cbn [andb]. rewrite orb_true_r. reflexivity.
Qed.

Lemma decided_add_vote_cs c v peer n n' o : c_skip_commit c = false -> 8 <= step n ->
  add_vote_cs c v peer n = Ok (n', o) -> height n' = height n -> 8 <= step n'.
Proof.
  intros Hskip Hd E Hh. apply add_vote_cs_cases in E as [[_ E]|[(_ & hv & added & code & Ea & E)|(_ & -> & _)]]; [|apply bind_ok in E as (n5 & o1 & o2 & Eb & Ec & _)|exact Hd].
  { rewrite (on_last_commit_step _ _ _ _ _ Hskip E). exact Hd. }
  apply report_idle in Ec as [-> _]. set (n1 := set_votes n hv) in *.
  assert (Hopen : (step n1 <? 8) = false) by (apply Z.ltb_ge; exact Hd).
  revert Eb. destruct (negb added); [intro Eb; injection Eb as <- _; exact Hd|].
  destruct (N.eqb (v_type v) 1).
  - (* a prevote: no round is skipped to; at most the prevote of the proposal, which was cast long ago *)
    unfold on_prevote, any23_open. cbn zeta. destruct (unlock_rule_same n1 (v_round v)) as (_ & _ & _ & Hs2 & _).
    set (n2 := unlock_rule n1 (v_round v)) in *. rewrite Hs2, Hopen. cbn [andb]. rewrite andb_false_r.
    assert (Hd2 : 8 <= step n2) by (rewrite Hs2; exact Hd).
    destruct (proposal n2) as [p|]; [|intro Eb; injection Eb as <- _; exact Hd2].
    destruct (_ && _); [|intro Eb; injection Eb as <- _; exact Hd2].
    unfold prevote_if_complete. destruct (is_proposal_complete n2) as [[|]| |]; try discriminate; intro Eb;
      [apply enter_prevote_noop in Eb; [subst n5; exact Hd2|exact Hd2]|injection Eb as <- _; exact Hd2].
  - (* a precommit: only +2/3 for a block move the node, and then into the commit step of that round *)
    destruct (N.eqb (v_type v) 2); [|discriminate]. unfold on_precommit, any23_open, enter_new_round_open.
    rewrite Hopen. cbn [andb]. rewrite andb_false_r.
    destruct (maj23 (hv_precommits (votes n1) (v_round v))) as [b|]; [|intro Eb; injection Eb as <- _; exact Hd].
    destruct (b_hash b); [intro Eb; injection Eb as <- _; exact Hd|].
    intro Eb. apply bind_ok in Eb as (n4 & oa & ob & Ea1 & Ea2 & _).
    rewrite Hskip in Ea2. cbn [andb] in Ea2. injection Ea2 as <- _.
    apply bind_ok in Ea1 as (n3 & oc & od & Eb1 & Eb2 & _).
    apply (round_then_precommit_acts False []) in Eb1; [|reflexivity]. apply acts_keeps in Eb1 as [H3 _].
    apply (enter_commit_decided _ _ _ _ _ _ Eb2); [exact H3|rewrite H3; exact Hh].
Qed.

Theorem decided_stays c i n n' o : c_skip_commit c = false -> 8 <= step n ->
  (forall h r s, i = ITimeout h r s -> r <= round n) ->
  handle c i n = Ok (n', o) -> height n' = height n -> 8 <= step n'.
Proof.
  intros Hskip Hd Ht. destruct i as [p sgn peer|h r idx b ok peer|v peer|h r s]; cbn [handle].
  - unfold set_proposal. destruct (proposal n); [intros E _; injection E as <- _; exact Hd|].
    destruct (_ || _); [intros E _; injection E as <- _; exact Hd|].
    replace (8 <=? step n) with true by (symmetry; apply Z.leb_le; exact Hd).
    intros E _. injection E as <- _. exact Hd.
  - unfold add_part. destruct (negb _); [intros E _; injection E as <- _; exact Hd|].
    destruct (pparts n) as [ps|]; [|intros E _; injection E as <- _; exact Hd].
    destruct (_ || _); [intros E _; injection E as <- _; exact Hd|].
    destruct (existsb _ _); [intros E _; injection E as <- _; exact Hd|].
    destruct (_ && _); [intros E _; injection E as <- _; exact Hd|].
    destruct (_ =? _); [|intros E _; injection E as <- _; exact Hd].
    intros E Hh. apply bind_ok in E as (n3 & o1 & o2 & E1 & E2 & _).
    assert (Hn3 : n' = n3) by (destruct ok; injection E2 as <- _; reflexivity). subst n'. clear E2.
    revert E1. cbn [step set_prop].
    replace (step n =? 3) with false by (symmetry; apply Z.eqb_neq; lia).
    destruct (step n =? 8); [|intro E1; injection E1 as <- _; exact Hd].
    intro E1. apply try_finalize_same in E1; [subst n3; exact Hd|exact Hh].
  - apply decided_add_vote_cs; assumption.
  - specialize (Ht h r s eq_refl). unfold handle_timeout.
    destruct (negb (h =? height n) || (r <? round n) || ((r =? round n) && (s <? step n))) eqn:Eg;
      [intros E _; injection E as <- _; exact Hd|].
    (* not ignored: a timeout of the node's own round that names a step from the commit step on - no such timeout exists *)
    apply orb_false_elim in Eg as [Eg1 Eg2]. apply orb_false_elim in Eg1 as [_ Eg1]. apply Z.ltb_ge in Eg1.
    assert (Hr : r = round n) by lia. subst r. rewrite Z.eqb_refl in Eg2. cbn [andb] in Eg2. apply Z.ltb_ge in Eg2.
    replace (s =? 1) with false by (symmetry; apply Z.eqb_neq; lia).
    replace (s =? 3) with false by (symmetry; apply Z.eqb_neq; lia).
    replace (s =? 5) with false by (symmetry; apply Z.eqb_neq; lia).
    replace (s =? 7) with false by (symmetry; apply Z.eqb_neq; lia). discriminate.
Qed.

