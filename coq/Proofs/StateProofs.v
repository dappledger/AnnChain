(* Proofs about Model/StateDB.v: the journal of undo entries and the copy semantics of snapshots
   agree, observationally, on every sequence of operations - so reverting to a snapshot restores
   exactly what every reader saw at the snapshot, however snapshots are nested and whatever was
   written, created, self-destructed or reverted in between. *)
From Coq Require Import List NArith Bool Lia Arith.
From AnnVerif Require Import Model.StateDB.
Import ListNotations.
Open Scope N_scope.

Definition aeq (x y : acct) : Prop :=
  a_nonce x = a_nonce y /\ a_bal x = a_bal y /\ a_sui x = a_sui y /\ forall k, sget (a_store x) k = sget (a_store y) k.
Definition oeq (o1 o2 : option acct) : Prop :=
  match o1, o2 with Some x, Some y => aeq x y | None, None => True | _, _ => False end.
Definition weq (w1 w2 : world) : Prop := forall a, oeq (wget w1 a) (wget w2 a).
Definition seteq (d1 d2 : list N) : Prop := forall a, In a d1 <-> In a d2.

Lemma aeq_refl x : aeq x x. Proof. repeat split. Qed.
Lemma oeq_refl o : oeq o o. Proof. destruct o; cbn; auto using aeq_refl. Qed.
Lemma weq_refl w : weq w w. Proof. intro a. apply oeq_refl. Qed.
Lemma aeq_sym x y : aeq x y -> aeq y x.
Proof. intros (A & B & C & D). repeat split; auto. Qed.
Lemma aeq_trans x y z : aeq x y -> aeq y z -> aeq x z.
Proof. intros (A & B & C & D) (A' & B' & C' & D'). split; [congruence|]. split; [congruence|]. split; [congruence|]. intro k. now rewrite D. Qed.
Lemma oeq_sym a b : oeq a b -> oeq b a.
Proof. destruct a, b; cbn; auto using aeq_sym. Qed.
Lemma oeq_trans a b c : oeq a b -> oeq b c -> oeq a c.
Proof. destruct a, b, c; cbn; try tauto. apply aeq_trans. Qed.
Lemma weq_sym a b : weq a b -> weq b a. Proof. intros H x. apply oeq_sym, H. Qed.
Lemma weq_trans a b c : weq a b -> weq b c -> weq a c. Proof. intros H1 H2 x. eapply oeq_trans; [apply H1|apply H2]. Qed.
Lemma seteq_refl d : seteq d d. Proof. intro; tauto. Qed.

Lemma wget_wset w a x b : wget (wset w a x) b = if a =? b then x else wget w b.
Proof. reflexivity. Qed.
Lemma weq_wset w1 w2 a x y : weq w1 w2 -> oeq x y -> weq (wset w1 a x) (wset w2 a y).
Proof. intros H Hx b. rewrite !wget_wset. destruct (a =? b); [exact Hx|apply H]. Qed.
Lemma empty_aeq x y : aeq x y -> empty x = empty y.
Proof. intros (A & B & _). unfold empty. now rewrite A, B. Qed.

Lemma weq_wset_same w a x : oeq (wget w a) x -> weq (wset w a x) w.
Proof.
  intros H b. rewrite wget_wset. destruct (N.eqb_spec a b) as [->|]; [now apply oeq_sym|apply oeq_refl].
Qed.

Lemma aeq_mk n b s st n' b' s' st' :
  n = n' -> b = b' -> s = s' -> (forall k, sget st k = sget st' k) -> aeq (mkAcct n b s st) (mkAcct n' b' s' st').
Proof. now repeat split. Qed.

Lemma sget_cons_ext k v st st' :
  (forall j, sget st j = sget st' j) -> forall j, sget ((k, v) :: st) j = sget ((k, v) :: st') j.
Proof. intros H j. cbn [sget]. now rewrite H. Qed.

Lemma sget_restore k v st j : sget ((k, sget st k) :: (k, v) :: st) j = sget st j.
Proof. cbn [sget]. destruct (N.eqb_spec k j) as [->|]; reflexivity. Qed.

Lemma weq_wset_back w a y x : oeq x (wget w a) -> weq (wset (wset w a y) a x) w.
Proof.
  intros H b. rewrite !wget_wset. destruct (N.eqb_spec a b) as [->|]; [exact H | apply oeq_refl].
Qed.

Lemma upd_acct_weq w1 w2 a f g : weq w1 w2 -> (forall x y, aeq x y -> aeq (f x) (g y)) ->
  weq (upd_acct w1 a f) (upd_acct w2 a g).
Proof.
  intros H Hf. unfold upd_acct. pose proof (H a) as Ha.
  destruct (wget w1 a) as [x|], (wget w2 a) as [y|]; cbn in Ha; try contradiction; [|exact H].
  apply weq_wset; [exact H | now apply Hf].
Qed.

Lemma undo_weq w1 w2 e : weq w1 w2 -> weq (undo w1 e) (undo w2 e).
Proof.
  intro H. destruct e; cbn [undo]; [apply weq_wset; [exact H | apply oeq_refl] | .. | exact H].
  all: apply upd_acct_weq; [exact H|]; intros x y (A & B & C & D); apply aeq_mk; auto using sget_cons_ext.
Qed.

Lemma undo_field w a xj x' f :
  wget w a = Some xj -> aeq (f x') xj -> weq (upd_acct (wset w a (Some x')) a f) w.
Proof.
  intros Hg Hf. unfold upd_acct. rewrite wget_wset, N.eqb_refl.
  apply weq_wset_back. rewrite Hg. exact Hf.
Qed.

Lemma revert_to_weq jl : forall w1 w2 n, weq w1 w2 ->
  weq (fst (revert_to w1 jl n)) (fst (revert_to w2 jl n)) /\ snd (revert_to w1 jl n) = snd (revert_to w2 jl n).
Proof.
  induction jl as [|e t IH]; intros w1 w2 n H; cbn [revert_to].
  - destruct (Nat.leb _ n); cbn; auto.
  - destruct (Nat.leb (length (e :: t)) n); cbn [fst snd]; [auto|]. apply IH. now apply undo_weq.
Qed.

Lemma revert_to_length jl : forall w n, (n <= length jl)%nat -> length (snd (revert_to w jl n)) = n.
Proof.
  induction jl as [|e t IH]; intros w n Hn; cbn [revert_to].
  - cbn in Hn. assert (n = 0%nat) by lia. subst. reflexivity.
  - destruct (Nat.leb_spec (length (e :: t)) n) as [Hl|Hl]; cbn [snd]; [cbn in *; lia|].
    apply IH. cbn in Hl. lia.
Qed.

Lemma revert_to_cons w e t n : (n <= length t)%nat -> revert_to w (e :: t) n = revert_to (undo w e) t n.
Proof.
  intro Hn. cbn [revert_to]. destruct (Nat.leb_spec (length (e :: t)) n) as [Hl|Hl]; [cbn in Hl; lia|reflexivity].
Qed.
Lemma revert_to_here w jl : revert_to w jl (length jl) = (w, jl).
Proof. destruct jl; cbn [revert_to]; rewrite Nat.leb_refl; reflexivity. Qed.

Lemma revert_to_compose jl : forall w n m, (m <= n)%nat -> (n <= length jl)%nat ->
  revert_to w jl m = revert_to (fst (revert_to w jl n)) (snd (revert_to w jl n)) m.
Proof.
  induction jl as [|e t IH]; intros w n m Hm Hn.
  - cbn in Hn. assert (n = 0%nat) by lia. assert (m = 0%nat) by lia. subst. reflexivity.
  - destruct (Nat.eq_dec n (length (e :: t))) as [->|Hne].
    + rewrite revert_to_here. reflexivity.
    + cbn [length] in *. rewrite (revert_to_cons w e t n) by lia. rewrite (revert_to_cons w e t m) by lia.
      apply IH; lia.
Qed.

Lemma finalise_get del d : forall w a,
  wget (finalise_world del w d) a =
  match wget w a with
  | Some x => if existsb (N.eqb a) d && (a_sui x || (del && empty x)) then None else Some x
  | None => None
  end.
Proof.
  unfold finalise_world. induction d as [|b d IH]; intros w a; cbn [fold_left existsb].
  - destruct (wget w a); reflexivity.
  - rewrite IH. destruct (wget w b) as [y|] eqn:Eb.
    + destruct (a_sui y || (del && empty y)) eqn:Ey.
      * rewrite wget_wset. destruct (N.eqb_spec b a) as [->|Hne].
        -- rewrite Eb, N.eqb_refl. cbn. now rewrite Ey.
        -- replace (a =? b) with false by (symmetry; apply N.eqb_neq; congruence). reflexivity.
      * destruct (N.eqb_spec a b) as [->|Hne]; [|reflexivity].
        rewrite Eb. cbn. rewrite Ey. destruct (existsb _ d); reflexivity.
    + destruct (N.eqb_spec a b) as [->|Hne]; [now rewrite Eb|reflexivity].
Qed.

Lemma existsb_In a d : existsb (N.eqb a) d = true <-> In a d.
Proof.
  rewrite existsb_exists. split.
  - intros (x & Hin & E). apply N.eqb_eq in E. now subst x.
  - intro Hin. exists a. split; [exact Hin | apply N.eqb_refl].
Qed.

Lemma existsb_seteq d1 d2 a : seteq d1 d2 -> existsb (N.eqb a) d1 = existsb (N.eqb a) d2.
Proof. intro H. apply eq_true_iff_eq. rewrite !existsb_In. apply H. Qed.

Lemma finalise_weq del w1 w2 d1 d2 : weq w1 w2 -> seteq d1 d2 -> weq (finalise_world del w1 d1) (finalise_world del w2 d2).
Proof.
  intros Hw Hd a. rewrite !finalise_get, (existsb_seteq d1 d2 a Hd). pose proof (Hw a) as Ha.
  destruct (wget w1 a) as [x|], (wget w2 a) as [y|]; cbn in Ha; try contradiction; [|exact I].
  rewrite (empty_aeq x y Ha). destruct Ha as (A & B & C & D). rewrite C.
  destruct (existsb _ d2 && (a_sui y || (del && empty y))); cbn; [exact I|]. repeat split; auto.
Qed.

(* the valid snapshots, newest first: the journal length recorded for each leads back, by undoing,
   to what its copy holds, and the older ones are related in the same way from there *)
Fixpoint srel (cs : list (nat * (world * list N))) (js : list (nat * nat)) (w : world) (jl : list jentry) (b : nat) : Prop :=
  match cs, js with
  | [], [] => True
  | (i, (wc, dc)) :: cs', (i', n) :: js' =>
    i = i' /\ (i < b)%nat /\ (n <= length jl)%nat /\
    weq (fst (revert_to w jl n)) wc /\ seteq (dirties (snd (revert_to w jl n))) dc /\
    srel cs' js' (fst (revert_to w jl n)) (snd (revert_to w jl n)) i
  | _, _ => False
  end.

Lemma srel_weq cs : forall js w1 w2 jl b, weq w1 w2 -> srel cs js w1 jl b -> srel cs js w2 jl b.
Proof.
  induction cs as [|[i [wc dc]] cs IH]; intros [|[i' n] js] w1 w2 jl b Hw H; cbn [srel] in *; auto.
  destruct H as (Ei & Hb & Hn & Hwq & Hd & Hr).
  destruct (revert_to_weq jl w1 w2 n Hw) as [Hf Hs]. rewrite <- Hs.
  split; [exact Ei|]. split; [exact Hb|]. split; [exact Hn|].
  split; [eapply weq_trans; [apply weq_sym; exact Hf|exact Hwq]|].
  split; [exact Hd|].
  eapply IH; [exact Hf|exact Hr].
Qed.

Lemma srel_bound cs js w jl b b' : (b <= b')%nat -> srel cs js w jl b -> srel cs js w jl b'.
Proof.
  destruct cs as [|[i [wc dc]] cs], js as [|[i' n] js]; cbn [srel]; auto.
  intros Hb (Ei & Hlt & R). split; [exact Ei|]. split; [lia|exact R].
Qed.

Lemma srel_push cs js w jl b w' e : srel cs js w jl b -> weq (undo w' e) w -> srel cs js w' (e :: jl) b.
Proof.
  destruct cs as [|[i [wc dc]] cs], js as [|[i' n] js]; cbn [srel]; auto.
  intros (Ei & Hb & Hn & Hwq & Hd & Hr) Hu.
  rewrite (revert_to_cons w' e jl n Hn).
  destruct (revert_to_weq jl (undo w' e) w n Hu) as [Hf Hs]. rewrite Hs.
  split; [exact Ei|]. split; [exact Hb|]. split; [cbn [length]; lia|].
  split; [eapply weq_trans; [exact Hf|exact Hwq]|].
  split; [exact Hd|].
  eapply srel_weq; [apply weq_sym; exact Hf|exact Hr].
Qed.

Lemma srel_find_lt cs : forall js w jl b id x, srel cs js w jl b -> find_snap cs id = Some x -> (id < b)%nat.
Proof.
  induction cs as [|[i [w0 d0]] cs IH]; intros [|[i' n0] js] w jl b id x H F; cbn [srel find_snap] in *; try discriminate; try contradiction.
  destruct H as (-> & Hb & _ & _ & _ & Hr). destruct (Nat.eqb_spec i' id) as [->|Hne]; [exact Hb|].
  specialize (IH _ _ _ _ _ _ Hr F). lia.
Qed.

(* ids decrease down the list: dropping from the bound upwards drops nothing *)
Lemma srel_drop_above cs js w jl b id :
  srel cs js w jl b -> (b <= id)%nat -> drop_snaps cs id = cs /\ drop_snaps js id = js.
Proof.
  destruct cs as [|[i [wc dc]] cs], js as [|[i' n] js]; cbn [srel]; try contradiction; [now split|].
  intros (<- & Hlt & _) Hb. cbn [drop_snaps].
  replace (id <=? i)%nat with false by (symmetry; apply Nat.leb_gt; lia). now split.
Qed.

Lemma srel_revert cs : forall js w jl b id wc dc,
  srel cs js w jl b -> find_snap cs id = Some (wc, dc) ->
  exists n, find_snap js id = Some n /\ (n <= length jl)%nat /\
    weq (fst (revert_to w jl n)) wc /\ seteq (dirties (snd (revert_to w jl n))) dc /\
    srel (drop_snaps cs id) (drop_snaps js id) (fst (revert_to w jl n)) (snd (revert_to w jl n)) b.
Proof.
  induction cs as [|[i [w0 d0]] cs IH]; intros [|[i' n0] js] w jl b id wc dc H F; cbn [srel find_snap] in *; try discriminate; try contradiction.
  destruct H as (Ei & Hb & Hn & Hwq & Hd & Hr). subst i'.
  destruct (Nat.eqb_spec i id) as [->|Hne].
  - (* the head has id and goes; the rest is below it and stays *)
    inversion F; subst. exists n0. split; [reflexivity|]. split; [exact Hn|]. split; [exact Hwq|]. split; [exact Hd|].
    cbn [drop_snaps]. rewrite Nat.leb_refl.
    destruct (srel_drop_above _ _ _ _ _ id Hr (le_n id)) as [-> ->].
    eapply srel_bound; [|exact Hr]. lia.
  - destruct (IH js _ _ i id wc dc Hr F) as (n & Fn & Hn' & Hw' & Hd' & Hr').
    rewrite (revert_to_length jl w n0 Hn) in Hn'.
    rewrite <- (revert_to_compose jl w n0 n Hn' Hn) in Hw', Hd', Hr'.
    exists n. split; [exact Fn|]. split; [lia|]. split; [exact Hw'|]. split; [exact Hd'|].
    (* the head is above id (id was found below it) and goes *)
    assert (Hid : (id < i)%nat) by exact (srel_find_lt cs js _ _ i id (wc, dc) Hr F).
    cbn [drop_snaps]. replace (id <=? i)%nat with true by (symmetry; apply Nat.leb_le; lia).
    eapply srel_bound; [|exact Hr']. lia.
Qed.

Lemma srel_find_none cs : forall js w jl b id, srel cs js w jl b -> find_snap cs id = None -> find_snap js id = None.
Proof.
  induction cs as [|[i [w0 d0]] cs IH]; intros [|[i' n0] js] w jl b id H F; cbn [srel find_snap] in *; try contradiction; auto.
  destruct H as (-> & _ & _ & _ & _ & Hr). destruct (Nat.eqb i' id); [discriminate|]. eapply IH; eauto.
Qed.

Definition R (sc : cstate) (sj : jstate) : Prop :=
  weq (c_w sc) (j_w sj) /\ seteq (c_dirty sc) (dirties (j_journal sj)) /\ c_next sc = j_next sj /\
  srel (c_snaps sc) (j_revs sj) (j_w sj) (j_journal sj) (c_next sc).

(* the shape of every write in [step_R]: one entry on the journal whose undoing gives back the old
   world, and on the copy side the address the entry dirties *)
Lemma R_push sc sj wc wj e :
  R sc sj -> weq wc wj -> weq (undo wj e) (j_w sj) ->
  R (mkC wc (jdirt e ++ c_dirty sc) (c_snaps sc) (c_next sc)) (mkJ wj (e :: j_journal sj) (j_revs sj) (j_next sj)).
Proof.
  intros (Hw & Hd & Hn & Hs) Hw' Hu. split; [exact Hw'|]. split; [|split; [exact Hn | exact (srel_push _ _ _ _ _ wj e Hs Hu)]].
  intro b. cbn [c_dirty j_journal dirties flat_map]. rewrite !in_app_iff, (Hd b). tauto.
Qed.

Lemma get_or_new_R sc sj a : R sc sj ->
  exists wc dc xc wj jl xj,
    get_or_new (c_w sc) (c_dirty sc) a = (wc, dc, xc) /\
    j_get_or_new (j_w sj) (j_journal sj) a = (wj, jl, xj) /\
    R (mkC wc dc (c_snaps sc) (c_next sc)) (mkJ wj jl (j_revs sj) (j_next sj)) /\
    aeq xc xj /\ wget wj a = Some xj.
Proof.
  intros HR. unfold get_or_new, j_get_or_new. pose proof (proj1 HR a) as Ha.
  destruct (wget (c_w sc) a) as [xc|], (wget (j_w sj) a) as [xj|] eqn:Ej; cbn in Ha; try contradiction.
  - do 6 eexists. do 2 (split; [reflexivity|]). split; [|split; [exact Ha | exact Ej]].
    destruct sc, sj. exact HR.
  - do 6 eexists. do 2 (split; [reflexivity|]).
    split; [|split; [apply aeq_refl | now rewrite wget_wset, N.eqb_refl]].
    apply (R_push sc sj _ _ (JObject a None) HR).
    + apply weq_wset; [apply HR | apply aeq_refl].
    + apply weq_wset_back. now rewrite Ej.
Qed.

Lemma step_R sc sj o : R sc sj -> R (c_step sc o) (j_step sj o).
Proof.
  intros HR. destruct o as [a n|a amt|a k v|a|a| |id|del]; cbn [c_step j_step].
  - (* SetNonce *)
    destruct (get_or_new_R sc sj a HR) as (wc & dc & xc & wj & jl & xj & -> & -> & HR' & (A & B & C & D) & Hg).
    apply (R_push _ _ _ _ (JNonce a (a_nonce xj)) HR').
    + apply weq_wset; [apply HR' | now apply aeq_mk].
    + apply (undo_field wj a xj); [exact Hg | now repeat split].
  - (* AddBalance *)
    destruct (get_or_new_R sc sj a HR) as (wc & dc & xc & wj & jl & xj & -> & -> & HR' & Hx & Hg).
    rewrite (empty_aeq xc xj Hx). destruct Hx as (A & B & C & D).
    destruct (amt =? 0); [destruct (empty xj); [|exact HR']|].
    + apply (R_push _ _ _ _ (JTouch a) HR'); [apply HR' | apply weq_refl].
    + apply (R_push _ _ _ _ (JBal a (a_bal xj)) HR').
      * apply weq_wset; [apply HR' | apply aeq_mk; auto; now rewrite B].
      * apply (undo_field wj a xj); [exact Hg | now repeat split].
  - (* SetState *)
    destruct (get_or_new_R sc sj a HR) as (wc & dc & xc & wj & jl & xj & -> & -> & HR' & (A & B & C & D) & Hg).
    rewrite (D k). destruct (sget (a_store xj) k =? v); [exact HR'|].
    apply (R_push _ _ _ _ (JStore a k (sget (a_store xj) k)) HR').
    + apply weq_wset; [apply HR' | apply aeq_mk; auto using sget_cons_ext].
    + apply (undo_field wj a xj); [exact Hg | repeat split; apply sget_restore].
  - (* Suicide *)
    pose proof (proj1 HR a) as Ha.
    destruct (wget (c_w sc) a) as [xc|], (wget (j_w sj) a) as [xj|] eqn:Ej; cbn in Ha; try contradiction; [|exact HR].
    destruct Ha as (A & B & C & D).
    apply (R_push sc sj _ _ (JSuicide a (a_sui xj) (a_bal xj)) HR).
    + apply weq_wset; [apply HR | now apply aeq_mk].
    + apply (undo_field (j_w sj) a xj); [exact Ej | now repeat split].
  - (* CreateAccount *)
    pose proof (proj1 HR a) as Ha.
    destruct (wget (c_w sc) a) as [xc|], (wget (j_w sj) a) as [xj|] eqn:Ej; cbn in Ha; try contradiction.
    + apply (R_push sc sj _ _ (JObject a (Some xj)) HR).
      * apply weq_wset; [apply HR | apply aeq_mk; auto; apply Ha].
      * apply weq_wset_back. rewrite Ej. apply aeq_refl.
    + apply (R_push sc sj _ _ (JObject a None) HR).
      * apply weq_wset; [apply HR | apply aeq_refl].
      * apply weq_wset_back. now rewrite Ej.
  - (* Snapshot *)
    destruct HR as (Hw & Hd & Hn & Hs).
    split; [exact Hw|]. split; [exact Hd|]. split; [cbn; congruence|].
    cbn [c_snaps j_revs j_w j_journal c_next srel].
    rewrite revert_to_here. cbn [fst snd].
    split; [exact Hn|]. split; [lia|]. split; [lia|]. split; [apply weq_sym; exact Hw|]. split; [intro b; symmetry; apply Hd|].
    exact Hs.
  - (* RevertToSnapshot *)
    pose proof HR as (Hw & Hd & Hn & Hs).
    destruct (find_snap (c_snaps sc) id) as [[wc dc]|] eqn:F.
    + destruct (srel_revert _ _ _ _ _ id wc dc Hs F) as (n & Fn & Hn' & Hw' & Hd' & Hr').
      rewrite Fn. destruct (revert_to (j_w sj) (j_journal sj) n) as [w' jl'] eqn:Er. cbn [fst snd] in *.
      split; [apply weq_sym; exact Hw'|]. split; [intro b; symmetry; apply Hd'|]. split; [exact Hn|exact Hr'].
    + rewrite (srel_find_none _ _ _ _ _ id Hs F). exact HR.
  - (* Finalise *)
    destruct HR as (Hw & Hd & Hn & Hs).
    split; [apply finalise_weq; assumption|]. split; [apply seteq_refl|]. split; [exact Hn|exact I].
Qed.

Theorem journal_refines_copy ops : R (c_run ops) (j_run ops).
Proof.
  unfold c_run, j_run.
  assert (H0 : R c0 j0) by (split; [apply weq_refl|]; split; [apply seteq_refl|]; split; [reflexivity|exact I]).
  revert H0. generalize c0 j0. induction ops as [|o ops IH]; intros sc sj H; cbn [fold_left]; [exact H|].
  apply IH. now apply step_R.
Qed.

Corollary journal_reads_like_copy ops a k :
  exists_ (j_w (j_run ops)) a = exists_ (c_w (c_run ops)) a /\
  nonce_ (j_w (j_run ops)) a = nonce_ (c_w (c_run ops)) a /\
  bal_ (j_w (j_run ops)) a = bal_ (c_w (c_run ops)) a /\
  state_ (j_w (j_run ops)) a k = state_ (c_w (c_run ops)) a k.
Proof.
  destruct (journal_refines_copy ops) as (Hw & _). pose proof (Hw a) as Ha.
  unfold exists_, nonce_, bal_, state_.
  destruct (wget (c_w (c_run ops)) a), (wget (j_w (j_run ops)) a); cbn in Ha; try contradiction; [|repeat split].
  destruct Ha as (A & B & C & D). repeat split; auto.
Qed.

Lemma copy_revert_restores s id w d : find_snap (c_snaps s) id = Some (w, d) ->
  c_w (c_step s (ORevert id)) = w /\ c_dirty (c_step s (ORevert id)) = d.
Proof. intro F. cbn [c_step]. rewrite F. split; reflexivity. Qed.
