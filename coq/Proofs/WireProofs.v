(* Proofs about Model.Wire: the decoder inverts the encoder on every value a Go variable of the
   type can hold (under any limit that admits the encoding), consumes exactly the bytes it
   accounts for, never takes the Panic outcome, and reaches an allocation only for lengths within
   the caller's limit. *)
From Coq Require Import List NArith ZArith Bool Lia ZifyBool ZifyNat ZifyN.
From AnnVerif Require Import Base.Res Base.Bytes Model.Wire Proofs.BytesProofs.
Import ListNotations.
Open Scope Z_scope.

Section TyInd.
  Variable P : ty -> Prop.
  Hypothesis Hfix : forall k s, P (TFix k s).
  Hypothesis Hvar : forall s, P (TVar s).
  Hypothesis Hbool : P TBool.
  Hypothesis Hbytes : P TBytes.
  Hypothesis Htime : P TTime.
  Hypothesis Harr : forall k, P (TArr k).
  Hypothesis Hlist : forall t, P t -> P (TList t).
  Hypothesis Harrof : forall k t, P t -> P (TArrOf k t).
  Hypothesis Hstruct : forall fs, Forall P fs -> P (TStruct fs).
  Hypothesis Hptr : forall t, P t -> P (TPtr t).
  Hypothesis Hiface : forall alts, Forall (fun kt => P (snd kt)) alts -> P (TIface alts).

  Fixpoint ty_ind2 (t : ty) : P t :=
    match t with
    | TFix k s => Hfix k s
    | TVar s => Hvar s
    | TBool => Hbool
    | TBytes => Hbytes
    | TTime => Htime
    | TArr k => Harr k
    | TList t' => Hlist t' (ty_ind2 t')
    | TArrOf k t' => Harrof k t' (ty_ind2 t')
    | TStruct fs =>
      Hstruct fs ((fix go (l : list ty) : Forall P l :=
                     match l with [] => Forall_nil _ | x :: r => Forall_cons x (ty_ind2 x) (go r) end) fs)
    | TPtr t' => Hptr t' (ty_ind2 t')
    | TIface alts =>
      Hiface alts ((fix go (l : list (N * ty)) : Forall (fun kt => P (snd kt)) l :=
                      match l with [] => Forall_nil _ | x :: r => Forall_cons x (ty_ind2 (snd x)) (go r) end) alts)
    end.
End TyInd.

Lemma Forall_forallb {A} (f : A -> bool) l : forallb f l = true -> Forall (fun x => f x = true) l.
Proof. induction l; cbn; intro H; constructor; apply andb_prop in H; tauto. Qed.

(* [injection] would unfold a [be_bytes 8 _] on its way *)
Lemma Some_inj {A} (a b : A) : Some a = Some b -> a = b.
Proof. congruence. Qed.

Lemma ok_count {A} (v : A) (a b : Z) (r : bytes) : a = b -> Ok (v, a, r) = Ok (v, b, r).
Proof. intros ->. reflexivity. Qed.

Lemma take_exact k n b rest : length b = k -> take k n (b ++ rest) = Ok (b, n + Z.of_nat k, rest).
Proof.
  intro H. unfold take. rewrite app_length.
  replace (length b + length rest <? k)%nat with false by lia.
  rewrite firstn_exact, skipn_exact by exact H. reflexivity.
Qed.

Lemma read_varint_prefix n c z rest : dec_varint (c ++ rest) = Some (z, rest) ->
  read_varint n (c ++ rest) = Ok (z, n + Z.of_nat (length c), rest).
Proof. intro E. unfold read_varint. rewrite E, app_length. apply ok_count. lia. Qed.

Lemma read_varint_enc n z rest : -9223372036854775808 <= z < 9223372036854775808 ->
  read_varint n (enc_varint z ++ rest) = Ok (z, n + Z.of_nat (length (enc_varint z)), rest).
Proof. intro Hz. apply read_varint_prefix, dec_enc_varint, Hz. Qed.

Lemma wrap64_min : wrap64 9223372036854775808 = -9223372036854775808.
Proof. reflexivity. Qed.

(* a uint64 read through the signed varint comes back after the conversion to uint64 *)
Lemma wrap64_mod a : (a < 18446744073709551616)%N -> wrap64 (Z.of_N a) mod pow256 8 = Z.of_N a.
Proof.
  intro Ha. change (pow256 8) with 18446744073709551616. unfold wrap64.
  rewrite Zminus_mod_idemp_l.
  replace (Z.of_N a + 9223372036854775808 - 9223372036854775808) with (Z.of_N a) by lia.
  apply Z.mod_small. lia.
Qed.

Lemma pow256_N k : Z.of_N (256 ^ N.of_nat k) = pow256 k.
Proof. unfold pow256. rewrite N2Z.inj_pow, nat_N_Z. reflexivity. Qed.
Lemma pow256_pos k : 0 < pow256 k.
Proof. unfold pow256. apply Z.pow_pos_nonneg; lia. Qed.

Lemma be_fix k z : Z.of_N (be_val (be_bytes k (Z.to_N (z mod pow256 k)))) = z mod pow256 k.
Proof.
  pose proof (pow256_pos k) as Hp. pose proof (Z.mod_pos_bound z (pow256 k) Hp) as Hb.
  rewrite be_val_be_bytes. rewrite N.mod_small.
  - rewrite Z2N.id by lia. reflexivity.
  - apply N2Z.inj_lt. rewrite Z2N.id by lia. rewrite pow256_N. lia.
Qed.

Lemma signed_roundtrip k z : - pow256 k <= 2 * z < pow256 k -> signed_of k (z mod pow256 k) = z.
Proof.
  intro H. unfold signed_of. destruct (Z.lt_ge_cases z 0) as [Hn|Hn].
  - replace (z mod pow256 k) with (z + pow256 k).
    + destruct (Z.leb_spec (pow256 k) (2 * (z + pow256 k))); lia.
    + apply Z.mod_unique with (-1); lia.
  - rewrite Z.mod_small by lia. destruct (Z.leb_spec (pow256 k) (2 * z)); lia.
Qed.

(* a limit of 0 is no limit *)
Definition fits (lmt n : Z) (b : bytes) : Prop := lmt = 0 \/ n + Z.of_nat (length b) <= lmt.

Lemma fits_not_over lmt n b : fits lmt n b -> over lmt (n + Z.of_nat (length b)) = false.
Proof. unfold fits, over. lia. Qed.
Lemma fits_app_l lmt n a b : fits lmt n (a ++ b) -> fits lmt n a.
Proof. unfold fits. rewrite app_length. lia. Qed.
Lemma fits_app_r lmt n a b : fits lmt n (a ++ b) -> fits lmt (n + Z.of_nat (length a)) b.
Proof. unfold fits. rewrite app_length. lia. Qed.
Lemma count_app n (a b : bytes) :
  n + Z.of_nat (length (a ++ b)) = n + Z.of_nat (length a) + Z.of_nat (length b).
Proof. rewrite app_length. lia. Qed.
Lemma count_nonneg n k : 0 <= n -> 0 <= n + Z.of_nat k.
Proof. lia. Qed.

Lemma read_bytes_enc lmt n b rest : small_len b = true -> 0 <= n -> fits lmt n (enc_bs b) ->
  read_bytes lmt n (enc_bs b ++ rest) = Ok (b, n + Z.of_nat (length (enc_bs b)), rest).
Proof.
  unfold small_len, fits, read_bytes, enc_bs. intros Hs Hn Hfit. rewrite app_length in Hfit.
  rewrite <- app_assoc, read_varint_enc, count_app by lia.
  replace (Z.of_nat (length b) <? 0) with false by lia.
  replace (negb (lmt =? 0) && _) with false by lia.
  rewrite app_length. replace (Z.of_nat (length b + length rest) <? Z.of_nat (length b)) with false by lia.
  rewrite Nat2Z.id. apply take_exact. reflexivity.
Qed.

Lemma opt_app_some a b r : opt_app a b = Some r -> exists x y, a = Some x /\ b = Some y /\ r = x ++ y.
Proof. destruct a, b; cbn; intro H; try discriminate. injection H as <-. eauto. Qed.
Lemma opt_pre_some p a r : opt_pre p a = Some r -> exists x, a = Some x /\ r = p ++ x.
Proof. destruct a; cbn; intro H; try discriminate. injection H as <-. eauto. Qed.

Lemma enc_list_first enc x l r : enc_list enc (x :: l) = Some r ->
  exists bx br, enc x = Some bx /\ enc_list enc l = Some br /\ r = bx ++ br.
Proof. cbn [enc_list]. apply opt_app_some. Qed.

Lemma enc_alts_tag alts tag x b : enc_alts alts tag x = Some b -> exists bx, b = [tag] ++ bx.
Proof.
  induction alts as [|[k e] r IH]; cbn [enc_alts]; [discriminate|]. destruct (N.eqb k tag); [|exact IH].
  intro H. apply opt_pre_some in H as (y & _ & ->). eauto.
Qed.

(* an element of a slice occupies at least one byte, so a written slice announces no more elements
   than bytes follow it (loop_count) *)
Lemma pos_all t : forall v b, pos_size t = true -> encode t v = Some b -> (1 <= length b)%nat.
Proof.
  (* in every case: only the value shapes the encoder accepts for the type remain *)
  induction t using ty_ind2; intros v b Hp He;
    (destruct v; try discriminate; try (destruct s; discriminate); cbn [encode pos_size] in *).
  - injection He as <-. rewrite be_bytes_length. lia.
  - destruct s; injection He as <-; cbn [length enc_varint enc_uvarint]; lia.
  - injection He as <-. cbn [length]. lia.
  - injection He as <-. unfold enc_bs, enc_varint. cbn [length List.app]. lia.
  - injection He as <-. cbn [length]. lia.
  - destruct (Nat.eqb_spec (length b0) k); [|discriminate]. injection He as <-. lia.
  - apply opt_pre_some in He as (x & _ & ->). cbn [enc_varint length List.app]. lia.
  - destruct (Nat.eqb_spec (length l) k) as [El|]; [|discriminate]. destruct l as [|x l]; [cbn [length] in El; lia|].
    apply enc_list_first in He as (bx & br & Ex & _ & ->). rewrite app_length.
    pose proof (IHt x bx ltac:(lia) Ex). lia.
  - revert l b He Hp. induction H as [|f fs Hf _ IH]; intros l b He Hp; [discriminate|].
    cbn [map enc_fields existsb] in *. destruct l as [|x l]; [discriminate|].
    apply opt_app_some in He as (bx & br & Ex & Er & ->). rewrite app_length.
    apply orb_prop in Hp as [Hp|Hp].
    + pose proof (Hf x bx Hp Ex). lia.
    + pose proof (IH l br Er Hp). lia.
  - injection He as <-. cbn [length]. lia.
  - apply opt_pre_some in He as (x & _ & ->). cbn [length List.app]. lia.
  - injection He as <-. cbn [length]. lia.
  - apply enc_alts_tag in He as (bx & ->). cbn [length List.app]. lia.
Qed.

Lemma enc_list_len enc l : forall body,
  (forall x bx, enc x = Some bx -> (1 <= length bx)%nat) ->
  enc_list enc l = Some body -> (length l <= length body)%nat.
Proof.
  induction l as [|x l IH]; intros body Hpos He; [cbn; lia|].
  apply enc_list_first in He as (bx & br & Ex & Er & ->). rewrite app_length. cbn [length].
  pose proof (Hpos x bx Ex). pose proof (IH br Hpos Er). lia.
Qed.

Definition RT (t : ty) : Prop := forall v b lmt n rest,
  wf_ty t = true -> wf_val t v = true -> encode t v = Some b -> 0 <= n -> fits lmt n b ->
  decode t lmt n (b ++ rest) = Ok (v, n + Z.of_nat (length b), rest).

Lemma dec_loop_enc (dec : decoder) (enc : val -> option bytes) lmt l :
  (forall x bx n rest, In x l -> enc x = Some bx -> 0 <= n -> fits lmt n bx ->
     dec n (bx ++ rest) = Ok (x, n + Z.of_nat (length bx), rest)) ->
  forall acc n body rest, enc_list enc l = Some body -> 0 <= n -> fits lmt n body ->
  dec_loop dec lmt (length l) n (body ++ rest) acc = Ok (VL (rev acc ++ l), n + Z.of_nat (length body), rest).
Proof.
  induction l as [|x l IH]; intros Hdec acc n body rest He Hn Hfit.
  - injection He as <-. cbn [dec_loop length List.app]. rewrite app_nil_r. apply ok_count. lia.
  - apply enc_list_first in He as (bx & br & Ex & Er & ->). cbn [length dec_loop]. rewrite <- app_assoc.
    pose proof (fits_app_l _ _ _ _ Hfit) as Hfx.
    rewrite (Hdec x bx n (br ++ rest) (or_introl eq_refl) Ex Hn Hfx), (fits_not_over _ _ _ Hfx).
    rewrite IH; [|intros; apply Hdec; auto; right; assumption|exact Er|exact (count_nonneg _ _ Hn)|exact (fits_app_r _ _ _ _ Hfit)].
    cbn [rev]. rewrite <- app_assoc, count_app. reflexivity.
Qed.

(* stated on [TStruct fs]: the hypotheses on the tail of the fields are those on the struct of the
   tail by conversion *)
Lemma dec_fields_enc lmt fs : Forall RT fs ->
  forall l acc n body rest, wf_ty (TStruct fs) = true -> wf_val (TStruct fs) (VL l) = true ->
  encode (TStruct fs) (VL l) = Some body -> 0 <= n -> fits lmt n body ->
  dec_fields (map (fun f => decode f lmt) fs) n (body ++ rest) acc = Ok (VL (rev acc ++ l), n + Z.of_nat (length body), rest).
Proof.
  induction 1 as [|f fs Hf _ IH]; intros [|x l] acc n body rest Hty Hwf He Hn Hfit; try discriminate.
  - injection He as <-. cbn [map dec_fields length List.app]. rewrite app_nil_r. apply ok_count. lia.
  - cbn [wf_ty wf_val encode map enc_fields forallb] in Hty, Hwf, He |- *.
    apply opt_app_some in He as (bx & br & Ex & Er & ->).
    apply andb_prop in Hty as [Hty1 Hty2]. apply andb_prop in Hwf as [Hw1 Hw2].
    cbn [dec_fields]. rewrite <- app_assoc.
    rewrite (Hf x bx lmt n (br ++ rest) Hty1 Hw1 Ex Hn (fits_app_l _ _ _ _ Hfit)).
    rewrite (IH l (x :: acc) (n + Z.of_nat (length bx)) br rest Hty2 Hw2 Er (count_nonneg _ _ Hn) (fits_app_r _ _ _ _ Hfit)).
    cbn [rev]. rewrite <- app_assoc, count_app. reflexivity.
Qed.

(* the same walk shows that the tag found is not the 0 that stands for nil *)
Lemma dec_alts_enc lmt alts : Forall (fun kt => RT (snd kt)) alts ->
  forall tag x n bx rest, wf_ty (TIface alts) = true -> wf_val (TIface alts) (VI tag x) = true ->
  encode (TIface alts) (VI tag x) = Some ([tag] ++ bx) -> 0 <= n -> fits lmt n bx ->
  dec_alts (map (fun kt => (fst kt, decode (snd kt) lmt)) alts) tag n (bx ++ rest) = Ok (VI tag x, n + Z.of_nat (length bx), rest) /\ (0 < tag)%N.
Proof.
  induction 1 as [|[k t'] alts Hk _ IH]; intros tag x n bx rest Hty Hwf He Hn Hfit; [discriminate|].
  cbn [wf_ty wf_val encode map enc_alts dec_alts forallb fst snd] in Hk, Hty, Hwf, He |- *.
  apply andb_prop in Hty as [Hty1 Hty2]. apply andb_prop in Hty1 as [Hbyte Hty1].
  destruct (N.eqb_spec k tag) as [->|Hne]; [|apply IH; assumption].
  apply opt_pre_some in He as (b' & Ex & Eb). apply app_inv_head in Eb as <-.
  rewrite (Hk x bx lmt n rest Hty1 Hwf Ex Hn Hfit). split; [reflexivity|lia].
Qed.

Theorem roundtrip_all : forall t, RT t.
Proof.
  (* in every case: only the value shapes the encoder accepts for the type remain, and encoder,
     decoder and well-formedness are unfolded one step *)
  induction t using ty_ind2; unfold RT; intros v b lmt n rest Hty Hwf He Hn Hfit;
    (destruct v; try discriminate; try (destruct s; discriminate); cbn [encode wf_val wf_ty decode] in *).
  - (* fixed *)
    injection He as <-. rewrite take_exact, be_bytes_length, be_fix by apply be_bytes_length.
    destruct s; [rewrite signed_roundtrip by lia|rewrite Z.mod_small by lia]; reflexivity.
  - (* varint *)
    destruct s; injection He as <-.
    + rewrite read_varint_enc by lia. reflexivity.
    + rewrite (read_varint_prefix _ _ _ _ (dec_enc_uvarint (Z.to_N z) rest ltac:(lia))), wrap64_mod, Z2N.id by lia. reflexivity.
  - (* bool *)
    injection He as <-. rewrite take_exact by reflexivity. destruct b0; reflexivity.
  - (* bytes *)
    injection He as <-. rewrite read_bytes_enc by (assumption || lia). reflexivity.
  - (* time *)
    apply Some_inj in He as <-. apply andb_prop in Hwf as [Hr Hrem]. apply Z.eqb_eq in Hrem.
    assert (Hq : z ÷ 1000000 * 1000000 = z) by (pose proof (Z.quot_rem' z 1000000); lia).
    rewrite Hq, take_exact, be_bytes_length, be_fix by apply be_bytes_length.
    rewrite signed_roundtrip, Hrem by (change (pow256 8) with 18446744073709551616; lia). reflexivity.
  - (* byte array *)
    destruct (Nat.eqb_spec (length b0) k) as [El|]; [|discriminate].
    injection He as <-. rewrite take_exact, El by exact El. reflexivity.
  - (* slice *)
    apply opt_pre_some in He as (body & Eb & ->).
    apply andb_prop in Hty as [Hpos Hty]. apply andb_prop in Hwf as [Hsl Hall]. unfold small_len in Hsl.
    rewrite <- app_assoc, read_varint_enc, count_app by lia.
    (* the announced length is within what the input holds *)
    pose proof (enc_list_len _ l body (fun x bx => pos_all t x bx Hpos) Eb) as Hlen.
    unfold loop_count. rewrite app_length.
    replace (Z.of_nat (length l) <=? Z.of_nat (length body + length rest)) with true by lia.
    rewrite Nat2Z.id. apply (dec_loop_enc _ (encode t)); [|exact Eb|exact (count_nonneg _ _ Hn)|exact (fits_app_r _ _ _ _ Hfit)].
    intros x bx n0 rest0 Hin Ex. apply IHt; [exact Hty| |exact Ex].
    rewrite forallb_forall in Hall. exact (Hall x Hin).
  - (* array *)
    destruct (Nat.eqb_spec (length l) k) as [<-|]; [|discriminate].
    apply (dec_loop_enc _ (encode t)); [|exact He|exact Hn|exact Hfit].
    intros x bx n0 rest0 Hin Ex. apply IHt; [exact Hty| |exact Ex].
    apply andb_prop in Hwf as [_ Hall]. rewrite forallb_forall in Hall. exact (Hall x Hin).
  - (* struct *)
    exact (dec_fields_enc lmt fs H l [] n b rest Hty Hwf He Hn Hfit).
  - (* nil pointer *)
    injection He as <-. rewrite take_exact by reflexivity. reflexivity.
  - (* pointer *)
    apply opt_pre_some in He as (bx & Ex & ->). rewrite <- app_assoc, take_exact, count_app by reflexivity.
    cbn [N.eqb Pos.eqb]. rewrite (IHt v bx lmt (n + Z.of_nat 1) rest Hty Hwf Ex (count_nonneg _ _ Hn) (fits_app_r _ _ _ _ Hfit)). reflexivity.
  - (* nil interface *)
    injection He as <-. rewrite take_exact by reflexivity. reflexivity.
  - (* registered interface: the type byte, then the value *)
    destruct (enc_alts_tag _ _ _ _ He) as (bx & ->).
    destruct (dec_alts_enc lmt alts H tag v (n + Z.of_nat 1) bx rest Hty Hwf He (count_nonneg _ _ Hn) (fits_app_r _ _ _ _ Hfit)) as [Hd Htag].
    rewrite <- app_assoc, take_exact, count_app by reflexivity.
    replace (tag =? 0)%N with false by lia. exact Hd.
Qed.

(* ReadBinary (WriteBinary v) = v *)
Theorem read_binary_roundtrip t v b lmt :
  wf_ty t = true -> wf_val t v = true -> encode t v = Some b ->
  (lmt = 0 \/ Z.of_nat (length b) <= lmt) -> read_binary t lmt b = Ok (v, Z.of_nat (length b)).
Proof.
  intros Hty Hwf He Hl. unfold read_binary. rewrite <- (app_nil_r b) at 1.
  rewrite (roundtrip_all t v b lmt 0 [] Hty Hwf He (Z.le_refl 0) Hl), (fits_not_over lmt 0 b Hl). reflexivity.
Qed.

Theorem encode_injective t v1 v2 b :
  wf_ty t = true -> wf_val t v1 = true -> wf_val t v2 = true -> encode t v1 = Some b -> encode t v2 = Some b -> v1 = v2.
Proof.
  intros Hty H1 H2 E1 E2.
  pose proof (read_binary_roundtrip t v1 b 0 Hty H1 E1 (or_introl eq_refl)) as R1.
  pose proof (read_binary_roundtrip t v2 b 0 Hty H2 E2 (or_introl eq_refl)) as R2.
  congruence.
Qed.

Definition consumed (n : Z) (bs : bytes) (n' : Z) (r : bytes) : Prop :=
  exists c, bs = c ++ r /\ n' = n + Z.of_nat (length c).

Lemma consumed_refl n bs : consumed n bs n bs.
Proof. exists []. split; [reflexivity|cbn; lia]. Qed.
Lemma consumed_trans n bs n1 r1 n2 r2 : consumed n bs n1 r1 -> consumed n1 r1 n2 r2 -> consumed n bs n2 r2.
Proof. intros (c1 & -> & ->) (c2 & -> & ->). exists (c1 ++ c2). rewrite app_assoc, app_length. split; [reflexivity|lia]. Qed.

Definition counted {A} (n : Z) (bs : bytes) (x : res (A * Z * bytes)) : Prop :=
  match x with Ok (_, n', r) => consumed n bs n' r | Err _ => True | Panic _ => False end.

Lemma counted_bind {A B} n bs (m : res (A * Z * bytes)) (k : A -> Z -> bytes -> res (B * Z * bytes)) :
  counted n bs m -> (forall a n1 r1, counted n1 r1 (k a n1 r1)) ->
  counted n bs (match m with Ok (a, n1, r1) => k a n1 r1 | Err e => Err e | Panic w => Panic w end).
Proof.
  destruct m as [[[a n1] r1]|e|w]; cbn [counted]; auto. intros C K. specialize (K a n1 r1).
  destruct (k a n1 r1) as [[[b n2] r2]|e|w]; cbn [counted] in *; auto. exact (consumed_trans _ _ _ _ _ _ C K).
Qed.

Lemma take_ok k n bs b n1 r : take k n bs = Ok (b, n1, r) -> consumed n bs n1 r /\ length b = k.
Proof.
  unfold take. destruct (Nat.ltb_spec (length bs) k) as [|Hk]; [discriminate|]. intro H. injection H as <- <- <-.
  split; [|rewrite firstn_length; lia]. exists (firstn k bs). rewrite firstn_skipn, firstn_length. split; [reflexivity|lia].
Qed.
Lemma counted_take k n bs : counted n bs (take k n bs).
Proof. destruct (take k n bs) as [[[b n1] r]|e|w] eqn:E; cbn [counted]; [apply (take_ok _ _ _ _ _ _ E)|exact I|]. unfold take in E. destruct (_ <? _)%nat; discriminate. Qed.

Lemma counted_read_varint n bs : counted n bs (read_varint n bs).
Proof.
  unfold read_varint. destruct (dec_varint bs) as [[z rest]|] eqn:E; [|exact I].
  destruct (dec_varint_suffix _ _ _ E) as (c & ->). exists c. rewrite app_length. split; [reflexivity|lia].
Qed.

Lemma counted_read_bytes lmt n bs : counted n bs (read_bytes lmt n bs).
Proof.
  apply counted_bind; [apply counted_read_varint|]. intros len n1 r1.
  destruct (len <? 0); [exact I|]. destruct (_ && _); [exact I|]. destruct (_ <? _); [exact I|]. apply counted_take.
Qed.

Lemma counted_loop (dec : decoder) lmt : (forall n bs, counted n bs (dec n bs)) ->
  forall count n bs acc, counted n bs (dec_loop dec lmt count n bs acc).
Proof.
  intros Hd count. induction count as [|c IH]; intros n bs acc; cbn [dec_loop]; [apply consumed_refl|].
  apply counted_bind; [apply Hd|]. intros v n2 r2. destruct (over lmt n2); [exact I|apply IH].
Qed.
Lemma counted_fields (decs : list decoder) : Forall (fun d => forall n bs, counted n bs (d n bs)) decs ->
  forall n bs acc, counted n bs (dec_fields decs n bs acc).
Proof.
  induction 1 as [|d dr Hd _ IH]; intros n bs acc; cbn [dec_fields]; [apply consumed_refl|].
  apply counted_bind; [apply Hd|]. intros v n2 r2. apply IH.
Qed.
Lemma counted_alts (alts : list (N * decoder)) x : Forall (fun kd => forall n bs, counted n bs (snd kd n bs)) alts ->
  forall n bs, counted n bs (dec_alts alts x n bs).
Proof.
  induction 1 as [|[k d] ar Hd _ IH]; intros n bs; cbn [dec_alts]; [exact I|].
  destruct (N.eqb k x); [|apply IH]. apply counted_bind; [apply Hd|]. intros; apply consumed_refl.
Qed.

Theorem decode_counted : forall t lmt n bs, counted n bs (decode t lmt n bs).
Proof.
  induction t using ty_ind2; intros lmt n bs; cbn [decode].
  - apply counted_bind; [apply counted_take|]. intros; apply consumed_refl.
  - apply counted_bind; [apply counted_read_varint|]. intros; apply consumed_refl.
  - apply counted_bind; [apply counted_take|]. intros; apply consumed_refl.
  - apply counted_bind; [apply counted_read_bytes|]. intros; apply consumed_refl.
  - apply counted_bind; [apply counted_take|]. intros b n1 r. destruct (_ =? 0); [apply consumed_refl|exact I].
  - apply counted_bind; [apply counted_take|]. intros; apply consumed_refl.
  - apply counted_bind; [apply counted_read_varint|]. intros len n1 r1. apply counted_loop. apply IHt.
  - apply counted_loop. apply IHt.
  - apply counted_fields. rewrite Forall_map. revert H. apply Forall_impl. intros f Hf. apply Hf.
  - apply counted_bind; [apply counted_take|]. intros [|x [|y b]] n1 r; try exact I.
    destruct (x =? 0)%N; [apply consumed_refl|]. destruct (x =? 1)%N; [|exact I].
    apply counted_bind; [apply IHt|]. intros; apply consumed_refl.
  - apply counted_bind; [apply counted_take|]. intros [|x [|y b]] n1 r; try exact I.
    destruct (x =? 0)%N; [apply consumed_refl|].
    apply counted_alts. rewrite Forall_map. revert H. apply Forall_impl. intros kt Hk. apply Hk.
Qed.

Theorem decode_never_panics t lmt n bs w : decode t lmt n bs <> Panic w.
Proof. intro E. pose proof (decode_counted t lmt n bs) as C. rewrite E in C. exact C. Qed.

Theorem decode_consumed t lmt n bs v n' r : decode t lmt n bs = Ok (v, n', r) -> consumed n bs n' r.
Proof. intro E. pose proof (decode_counted t lmt n bs) as C. rewrite E in C. exact C. Qed.

Theorem read_binary_within_limit t lmt bs v n : lmt <> 0 ->
  read_binary t lmt bs = Ok (v, n) -> n <= lmt /\ exists c r, bs = c ++ r /\ n = Z.of_nat (length c).
Proof.
  intros Hl. unfold read_binary. destruct (decode t lmt 0 bs) as [[[v' n'] r]|e|w] eqn:E; try discriminate.
  destruct (over lmt n') eqn:Ho; [discriminate|]. intro H. injection H as <- <-.
  destruct (decode_consumed _ _ _ _ _ _ _ E) as (c & -> & ->).
  split; [unfold over in Ho; lia|]. exists c, r. split; [reflexivity|lia].
Qed.

(* under a limit ReadByteSlice comes to its make([]byte, len) only with a length between 0 and the
   limit; when the read succeeds, that length is the size of the slice it returns *)
Theorem alloc_within_limit lmt n bs len : lmt <> 0 -> read_bytes_alloc lmt n bs = Some len -> 0 <= len <= lmt.
Proof.
  intros Hl. unfold read_bytes_alloc. destruct (read_varint n bs) as [[[l n1] r1]|e|w]; try discriminate.
  destruct (Z.ltb_spec l 0); [discriminate|]. destruct (_ && _) eqn:Hc; [discriminate|]. intro Hs. injection Hs as <-. lia.
Qed.
Theorem read_bytes_ok_alloc lmt n bs b n1 r : read_bytes lmt n bs = Ok (b, n1, r) ->
  read_bytes_alloc lmt n bs = Some (Z.of_nat (length b)).
Proof.
  unfold read_bytes, read_bytes_alloc. destruct (read_varint n bs) as [[[l n0] r0]|e|w]; try discriminate.
  destruct (Z.ltb_spec l 0); [discriminate|]. destruct (_ && _); [discriminate|]. destruct (_ <? _); [discriminate|].
  intro Ht. apply take_ok in Ht as [_ Ht]. rewrite Ht. rewrite Z2Nat.id by lia. reflexivity.
Qed.
