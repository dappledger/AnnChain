(* The signer record is consulted in two places only (signAddVote, defaultDecideProposal) and never
   steers the state machine.  One walk through the functions of Model/Node.v shows of each of them
   what [blind] says; run by run ([run_blind]) that gives the two facts about replaying an intact
   log after a crash (C07): the replay rebuilds the state before the crash whatever the signer file
   holds by then (Proofs/SignerIndep.v), and with the signer file as the crash left it - at or
   beyond everything the run signed - it rebuilds that state exactly and signs nothing afresh,
   which makes a restart an identity step of the N-node system (C01). *)
From Coq Require Import List NArith ZArith Lia Bool.
From AnnVerif Require Import Base.Res Base.Bytes Model.VoteSet Model.ValSet Model.Node Proofs.NodeProofs.
Import ListNotations.
Open Scope Z_scope.

Definition sg_le (a b : signer) : Prop := hrs_lt (sg_h b) (sg_r b) (sg_s b) (sg_h a) (sg_r a) (sg_s a) = false.
Lemma sg_le_refl a : sg_le a a. Proof. unfold sg_le, hrs_lt. lia. Qed.
Lemma sg_le_trans a b c : sg_le a b -> sg_le b c -> sg_le a c. Proof. unfold sg_le, hrs_lt. lia. Qed.

(* [f] only moves the signer forward; with another signer record [s] it takes the same path, fails
   the same way and ends in the same state up to the signer record; and it leaves [s] as it is
   when [s] is at or beyond the signer the first run ends with *)
Definition blind (f : node -> M) : Prop :=
  forall n s,
  match f n with
  | Ok (n', o) => sg_le (sg n) (sg n') /\
                  exists s' o', f (set_sg n s) = Ok (set_sg n' s', o') /\ (sg_le (sg n') s -> s' = s)
  | Err e => f (set_sg n s) = Err e
  | Panic w => f (set_sg n s) = Panic w
  end.

Lemma blind_ret : blind ret.
Proof. intros n s. split; [apply sg_le_refl|]. exists s, []. split; [reflexivity|trivial]. Qed.
Lemma blind_emit x : blind (emit x).
Proof. intros n s. split; [apply sg_le_refl|]. exists s, [x]. split; [reflexivity|trivial]. Qed.

Lemma blind_bind f g : blind f -> blind g -> blind (fun n => f n >>= g).
Proof.
  intros Hf Hg n s. specialize (Hf n s). unfold bindM. destruct (f n) as [[n1 o1]|e|w].
  - destruct Hf as (L1 & s1 & o1' & -> & F1). specialize (Hg n1 s1). destruct (g n1) as [[n2 o2]|e|w].
    + destruct Hg as (L2 & s2 & o2' & -> & F2). split; [exact (sg_le_trans _ _ _ L1 L2)|].
      exists s2, (o1' ++ o2'). split; [reflexivity|]. intro Hle.
      (* [s] is beyond the end, so beyond the middle: [f] leaves it alone, and then so does [g] *)
      assert (s1 = s) by (apply F1; exact (sg_le_trans _ _ _ L2 Hle)). subst s1. exact (F2 Hle).
    + now rewrite Hg.
    + now rewrite Hg.
  - now rewrite Hf.
  - now rewrite Hf.
Qed.

(* the signing step, at a position that is the same in both runs: afterwards the signer stands at
   or beyond the position, so a record beyond the new signer does not sign afresh *)
Lemma blind_sign h r st w (o1 o2 o3 o4 : list out) :
  blind (fun m => match sign_check (sg m) h r st w with
                  | SFresh => Ok (set_sg m (mkSg h r st w), o1)
                  | SSame => Ok (m, o2)
                  | SRefuse => Ok (m, o3)
                  | SUnknown => Ok (m, o4)
                  end).
Proof.
  intros n s. cbn beta. cbn [sg set_sg].
  generalize (sign_check_fresh (sg n) h r st w), (sign_check_fresh s h r st w).
  destruct (sign_check (sg n) h r st w); intros Hn Hs.
  all: split; [unfold sg_le, hrs_lt in *; cbn [sg set_sg sg_h sg_r sg_s]; lia|].
  all: destruct (sign_check s h r st w); eexists _, _; (split; [reflexivity|]); intro Hle; try reflexivity.
  (* left are the cases where [s] signs afresh: it stands before the position, the first run's signer
     at or beyond it *)
  all: exfalso; unfold sg_le, hrs_lt in *; cbn [sg set_sg sg_h sg_r sg_s] in Hle; lia.
Qed.

Lemma blind_errtail (c : bool) e : blind (fun n => if c then ret n else emit (OErr e) n).
Proof. destruct c; [apply blind_ret|apply blind_emit]. Qed.

(* a leaf of the case analysis: both runs make the same call, [F x] here and [F (set_sg x s)] (up
   to computation) there, and [L : blind F] says what comes of it *)
Ltac same_call L s :=
  match goal with
  | |- match ?F ?x with Ok _ => _ | Err _ => _ | Panic _ => _ end => exact (L x s)
  end.

Lemma blind_sign_add_vote t b : blind (sign_add_vote t b).
Proof.
  intros n s. unfold sign_add_vote, is_validator. cbn [priv vals set_sg height round sg].
  destruct (negb _); [same_call blind_ret s|].
  exact (blind_sign (height n) (round n) _ _ _ _ _ _ n s).
Qed.

Lemma blind_decide_proposal : blind decide_proposal.
Proof.
  intros n s. unfold decide_proposal. cbn [lblock height last_commit votes round sg set_sg].
  destruct (negb _); [same_call blind_ret s|].
  destruct (pol_info (votes n)) as [[polr ?]|e|w]; [|reflexivity|reflexivity].
  exact (blind_sign (height n) (round n) _ _ _ _ _ _ n s).
Qed.

Lemma blind_do_prevote : blind do_prevote.
Proof.
  intros n s. unfold do_prevote. cbn [lblock pblock pparts set_sg].
  destruct (lblock n); [apply blind_sign_add_vote|].
  destruct (pblock n) as [b|]; [|apply blind_sign_add_vote].
  unfold pparts_bid. cbn [pparts set_sg]. destruct (bk_valid b); apply blind_sign_add_vote.
Qed.

Lemma blind_enter_prevote h r : blind (enter_prevote h r).
Proof.
  intros n s. unfold enter_prevote. cbn [height round step set_sg].
  destruct (_ || _); [same_call blind_ret s|].
  revert n s. apply blind_bind; [apply blind_do_prevote|]. intros n s. same_call blind_ret s.
Qed.

(* what each caller of isProposalComplete does with the answer *)
Lemma blind_when_complete h : blind (prevote_if_complete h).
Proof.
  intros n s. unfold prevote_if_complete, is_proposal_complete. cbn [proposal pblock votes round set_sg].
  destruct (proposal n) as [p|]; [|same_call blind_ret s]. destruct (pblock n); [|same_call blind_ret s].
  destruct (p_polround p <? 0); [same_call (blind_enter_prevote h (round n)) s|].
  destruct (hv_prevotes (votes n) (p_polround p)) as [vs|]; [|reflexivity].
  destruct (vs_maj23 vs); [same_call (blind_enter_prevote h (round n)) s|same_call blind_ret s].
Qed.

Lemma blind_enter_propose h r : blind (enter_propose h r).
Proof.
  intros n s. unfold enter_propose. cbn [height round step set_sg].
  destruct (_ || _); [same_call blind_ret s|].
  revert n s. apply blind_bind.
  - apply blind_bind; [apply blind_emit|]. intros n s. cbn [priv vals set_sg].
    destruct (priv n) as [me|]; [|same_call blind_ret s].
    destruct (proposer (vals n)) as [[[a|] vs']|e|w]; try reflexivity.
    destruct (bytes_eqb a me); [same_call blind_decide_proposal s|same_call blind_ret s].
  - intros n s. exact (blind_when_complete h (set_step n r 3) s).
Qed.

Lemma blind_enter_new_round h r : blind (enter_new_round h r).
Proof.
  intros n s. unfold enter_new_round. cbn [height round step vals votes set_sg].
  destruct (_ || _); [same_call blind_ret s|].
  destruct (if round n <? r then _ else _) as [vs|e|w]; try reflexivity.
  cbn zeta. destruct (r =? 0); cbn [votes set_vals set_step set_prop set_sg].
  all: destruct (hv_set_round (votes n) (r + 1)) as [hv|e|w]; try reflexivity.
  all: same_call (blind_enter_propose h r) s.
Qed.

Lemma blind_enter_new_round_open h r : blind (enter_new_round_open h r).
Proof.
  intros n s. unfold enter_new_round_open. cbn [step set_sg].
  destruct (step n <? 8); [same_call (blind_enter_new_round h r) s|same_call blind_ret s].
Qed.

Lemma blind_enter_prevote_wait h r : blind (enter_prevote_wait h r).
Proof.
  intros n s. unfold enter_prevote_wait. cbn [height round step votes set_sg].
  destruct (_ || _); [same_call blind_ret s|]. destruct (negb (any23 _)); [reflexivity|].
  revert n s. apply blind_bind; [apply blind_emit|]. intros n s. same_call blind_ret s.
Qed.

Lemma blind_enter_precommit_wait h r : blind (enter_precommit_wait h r).
Proof.
  intros n s. unfold enter_precommit_wait. cbn [height round step votes set_sg].
  destruct (_ || _); [same_call blind_ret s|]. destruct (negb (any23 _)); [reflexivity|].
  revert n s. apply blind_bind; [apply blind_emit|]. intros n s. same_call blind_ret s.
Qed.

Lemma blind_enter_precommit h r : blind (enter_precommit h r).
Proof.
  intros n s. unfold enter_precommit. cbn [height round step set_sg].
  destruct (_ || _); [same_call blind_ret s|].
  revert n s. apply blind_bind; [|intros n s; same_call blind_ret s].
  intros n s. cbn [votes lblock pblock pparts proposal set_sg set_lock].
  destruct (maj23 (hv_prevotes (votes n) r)) as [b|]; [|same_call (blind_sign_add_vote 2 nil_bid) s].
  destruct (pol_info (votes n)) as [[polr ?]|e|w]; try reflexivity.
  destruct (polr <? r); [reflexivity|].
  destruct (b_hash b) as [|x xs].
  - destruct (lblock n); same_call (blind_sign_add_vote 2 nil_bid) s.
  - destruct (hashes_to (lblock n) (x :: xs)); [same_call (blind_sign_add_vote 2 b) s|].
    destruct (hashes_to (pblock n) (x :: xs)).
    + destruct (pblock n) as [pb|]; [|reflexivity]. destruct (negb (bk_valid pb)); [reflexivity|].
      cbn zeta. destruct (pparts n); same_call (blind_sign_add_vote 2 b) s.
    + cbn zeta. cbn [pparts set_lock proposal].
      destruct (has_header (pparts n) (b_total b) (b_phash b)); [same_call (blind_sign_add_vote 2 nil_bid) s|].
      destruct (new_pset (b_total b) (b_phash b)) as [ps|e|w]; try reflexivity.
      same_call (blind_sign_add_vote 2 nil_bid) s.
Qed.

Lemma blind_finalize_commit c h : blind (finalize_commit c h).
Proof.
  intros n s. unfold finalize_commit. cbn [height step votes commit_round pparts pblock st_vals priv sg set_sg].
  destruct (_ || _); [same_call blind_ret s|].
  destruct (maj23 _) as [b|]; [|reflexivity].
  destruct (negb (has_header _ _ _)); [reflexivity|]. destruct (negb (hashes_to _ _)); [reflexivity|].
  destruct (pblock n) as [pb|]; [|reflexivity]. destruct (negb (bk_valid pb)); [reflexivity|].
  destruct (increment (st_vals n) 1) as [nv|e|w]; try reflexivity.
  destruct (new_hvs (h + 1) (vals_of nv)) as [hv|e|w]; try reflexivity.
  (* the node of the next height keeps the signer it has *)
  split; [apply sg_le_refl|]. exists s. eexists. split; [reflexivity|trivial].
Qed.

Lemma blind_try_finalize_commit c h : blind (try_finalize_commit c h).
Proof.
  intros n s. unfold try_finalize_commit. cbn [height votes commit_round pblock set_sg].
  destruct (negb (height n =? h)); [reflexivity|].
  destruct (maj23 _) as [b|]; [|same_call blind_ret s]. destruct (b_hash b); [same_call blind_ret s|].
  destruct (hashes_to _ _); [same_call (blind_finalize_commit c h) s|same_call blind_ret s].
Qed.

Lemma blind_enter_commit c h cr : blind (enter_commit c h cr).
Proof.
  intros n s. unfold enter_commit. cbn [height step votes lblock set_sg].
  destruct (_ || _); [same_call blind_ret s|].
  destruct (maj23 _) as [b|]; [|reflexivity]. cbn zeta.
  destruct (hashes_to (lblock n) (b_hash b)); cbn [pblock pparts proposal set_prop set_sg lblock].
  all: destruct (hashes_to _ (b_hash b)); [same_call (blind_try_finalize_commit c h) s|].
  all: destruct (has_header _ _ _); [same_call (blind_try_finalize_commit c h) s|].
  all: destruct (new_pset _ _) as [ps|e|w]; try reflexivity.
  all: same_call (blind_try_finalize_commit c h) s.
Qed.

Lemma blind_set_proposal p sgn : blind (set_proposal p sgn).
Proof.
  intros n s. unfold set_proposal. cbn [proposal height round step vals pblock set_sg].
  destruct (proposal n); [same_call blind_ret s|].
  destruct (_ || _); [same_call blind_ret s|]. destruct (8 <=? step n); [same_call blind_ret s|].
  destruct (negb _ && _); [same_call (blind_emit (OErr 1)) s|].
  destruct (_ || _); [same_call (blind_emit (OErr 6)) s|].
  destruct (proposer (vals n)) as [[[a|] vs']|e|w]; try reflexivity. cbn zeta.
  destruct (negb (bytes_eqb a sgn)); [same_call (blind_emit (OErr 2)) s|].
  destruct (new_pset _ _) as [ps|e|w]; try reflexivity. same_call blind_ret s.
Qed.

Lemma blind_add_part c h idx b dec ver : blind (add_part c h idx b dec ver).
Proof.
  intros n s. unfold add_part. cbn [height pparts proposal pblock set_sg].
  destruct (negb (height n =? h)); [same_call blind_ret s|]. destruct (pparts n) as [ps|]; [|same_call blind_ret s].
  destruct (_ || _); [same_call (blind_emit (OErr 3)) s|]. destruct (existsb _ _); [same_call blind_ret s|].
  destruct (ver && _); [same_call (blind_emit (OErr 4)) s|].
  cbn zeta. destruct (Z.eqb _ _); [|same_call blind_ret s].
  revert n s. apply blind_bind; [|apply blind_errtail].
  intros n s. cbn [step set_prop set_sg round proposal pblock votes].
  destruct (step n =? 3); [match goal with |- context [is_proposal_complete ?x] => exact (blind_when_complete h x s) end|].
  destruct (step n =? 8); [same_call (blind_try_finalize_commit c h) s|same_call blind_ret s].
Qed.

Lemma blind_add_vote_cs c v peer : blind (add_vote_cs c v peer).
Proof.
  intros n s. unfold add_vote_cs. cbn [height step last_commit votes set_sg].
  destruct (v_height v + 1 =? height n).
  - destruct (negb _); [same_call (blind_emit (OErr 10)) s|].
    destruct (last_commit n) as [lc|]; [|same_call (blind_emit (OErr 10)) s].
    destruct (add_vote lc v) as [[[lc' added] code]|e|w]; try reflexivity. cbn zeta.
    revert n s. apply blind_bind; [|apply blind_errtail].
    intros n s. cbn [height set_last_commit set_sg].
    destruct (added && c_skip_commit c && has_all lc'); [same_call (blind_enter_new_round (height n) 0) s|same_call blind_ret s].
  - destruct (v_height v =? height n); [|same_call (blind_emit (OErr 10)) s]. cbn zeta.
    destruct (hv_add_vote (votes n) v peer) as [[[hv added] code]|e|w]; try reflexivity.
    revert n s. apply blind_bind; [|apply blind_errtail].
    intros n s. cbn [height votes lblock lround round proposal set_votes set_sg].
    destruct (negb added); [same_call blind_ret s|].
    generalize (height n) as hh. intro hh.
    destruct (N.eqb (v_type v) 1).
    + (* a prevote: first the unlock rule, which gives the same node in both runs *)
      set (n2 := match lblock n with Some _ => _ | None => _ end).
      set (n2s := match lblock n with Some _ => _ | None => _ end).
      assert (E2 : n2s = set_sg n2 s /\ sg n = sg n2).
      { unfold n2s, n2. destruct (lblock n); [|split; reflexivity]. destruct (_ && _); [|split; reflexivity].
        destruct (maj23 _); [|split; reflexivity]. destruct (negb _); split; reflexivity. }
      destruct E2 as (-> & ->). clearbody n2.
      unfold any23_open. cbn [round step proposal votes set_sg].
      destruct (_ && _).
      * revert n2 s. apply blind_bind; [apply blind_enter_new_round|].
        intros m t. cbn [votes set_sg]. destruct (maj23 _); [same_call (blind_enter_precommit hh (v_round v)) t|].
        revert m t. apply blind_bind; [apply blind_enter_prevote|apply blind_enter_prevote_wait].
      * destruct (proposal n2) as [p|]; [|same_call blind_ret s].
        destruct (_ && _); [exact (blind_when_complete hh n2 s)|same_call blind_ret s].
    + destruct (N.eqb (v_type v) 2); [|reflexivity]. cbn zeta.
      destruct (maj23 (hv_precommits hv (v_round v))) as [b|].
      * destruct (b_hash b); [same_call (blind_enter_new_round_open hh (v_round v + 1)) s|].
        revert n s. apply blind_bind; [apply blind_bind; [apply blind_bind|]|].
        -- intros m t. same_call (blind_enter_new_round hh (v_round v)) t.
        -- apply blind_enter_precommit.
        -- apply blind_enter_commit.
        -- intros m t. cbn [height set_sg].
           destruct (c_skip_commit c && _); [same_call (blind_enter_new_round (height m) 0) t|same_call blind_ret t].
      * unfold any23_open. cbn [step set_sg set_votes].
        destruct (_ && _); [|same_call blind_ret s].
        revert n s. apply blind_bind; [apply blind_bind|].
        -- intros m t. same_call (blind_enter_new_round hh (v_round v)) t.
        -- apply blind_enter_precommit.
        -- apply blind_enter_precommit_wait.
Qed.

Lemma blind_handle_timeout h r st : blind (handle_timeout h r st).
Proof.
  intros n s. unfold handle_timeout. cbn [height round step set_sg].
  destruct (_ || _); [same_call blind_ret s|].
  destruct (st =? 1); [same_call (blind_enter_new_round h 0) s|].
  destruct (st =? 3); [same_call (blind_enter_prevote h r) s|].
  destruct (st =? 5); [same_call (blind_enter_precommit h r) s|].
  destruct (st =? 7); [same_call (blind_enter_new_round h (r + 1)) s|reflexivity].
Qed.

Theorem blind_handle c i : blind (handle c i).
Proof.
  destruct i; cbn [handle]; [apply blind_set_proposal|apply blind_add_part|apply blind_add_vote_cs|apply blind_handle_timeout].
Qed.

Theorem run_blind c ins : forall n s,
  match run c ins n with
  | Ok n' => sg_le (sg n) (sg n') /\
             exists s', run c ins (set_sg n s) = Ok (set_sg n' s') /\ (sg_le (sg n') s -> s' = s)
  | Err e => run c ins (set_sg n s) = Err e
  | Panic w => run c ins (set_sg n s) = Panic w
  end.
Proof.
  induction ins as [|i t IH]; intros n s; cbn [run].
  - split; [apply sg_le_refl|]. exists s. split; [reflexivity|trivial].
  - pose proof (blind_handle c i n s) as H. destruct (handle c i n) as [[n1 o1]|e|w]; [|now rewrite H|now rewrite H].
    destruct H as (L1 & s1 & o1' & -> & F1). specialize (IH n1 s1). destruct (run c t n1) as [n2|e|w]; [|exact IH|exact IH].
    destruct IH as (L2 & s2 & -> & F2). split; [exact (sg_le_trans _ _ _ L1 L2)|]. exists s2. split; [reflexivity|].
    intro Hle. assert (s1 = s) by (apply F1; exact (sg_le_trans _ _ _ L2 Hle)). subst s1. exact (F2 Hle).
Qed.

(* the part of [blind] that the restart needs: nothing is signed afresh under a dominating record *)
Definition dom (f : node -> M) : Prop :=
  forall n s n' o, f n = Ok (n', o) -> sg_le (sg n') s -> exists o', f (set_sg n s) = Ok (set_sg n' s, o').

Lemma dom_of_blind f : blind f -> dom f.
Proof.
  intros Hf n s n' o E Hle. specialize (Hf n s). rewrite E in Hf.
  destruct Hf as (_ & s' & o' & F & Hd). rewrite (Hd Hle) in F. exists o'. exact F.
Qed.

Lemma dom_fun (f : node -> M) : dom f -> dom (fun n => f n). Proof. exact (fun H => H). Qed.

Theorem dom_handle c i : c_skip_commit c = false -> dom (handle c i).
Proof. intros _. apply dom_of_blind, blind_handle. Qed.

(* [Hs] is not used: it keeps the statement in the form in which C07 cites it *)
Theorem replay_inert c (Hs : c_skip_commit c = false) ins : forall n n' s,
  run c ins n = Ok n' -> sg_le (sg n') s -> run c ins (set_sg n s) = Ok (set_sg n' s).
Proof.
  intros n n' s E Hle. pose proof (run_blind c ins n s) as H. rewrite E in H.
  destruct H as (_ & s' & F & Hd). rewrite (Hd Hle) in F. exact F.
Qed.

Theorem restart_is_identity c (Hs : c_skip_commit c = false) h vs lc me s0 ins n0 n :
  init_node h vs lc me s0 = Ok n0 -> run c ins n0 = Ok n ->
  exists n0', init_node h vs lc me (sg n) = Ok n0' /\ run c ins n0' = Ok n.
Proof.
  unfold init_node. destruct (new_hvs h (vals_of vs)) as [hv| |]; try discriminate.
  intros E0 Hr. injection E0 as <-. eexists. split; [reflexivity|].
  pose proof (replay_inert c Hs ins _ n (sg n) Hr (sg_le_refl _)) as H. rewrite set_sg_self in H. exact H.
Qed.
