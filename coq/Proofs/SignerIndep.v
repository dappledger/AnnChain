(* The consensus state machine's state does not depend on the signer file: running the same inputs
   with another signer state gives the same state except for the signer record itself (the outputs
   may differ).  Hence replaying an intact log after a crash - whatever the signer file holds by
   then - rebuilds the state before the crash, every field but the signer record (C07).  The walk
   through the functions of Model/Node.v behind it is the one of Proofs/SignerDom.v ([blind]). *)
From Coq Require Import List NArith Bool.
From AnnVerif Require Import Base.Res Model.Node Proofs.NodeProofs Proofs.SignerDom.
Import ListNotations.
Open Scope Z_scope.

Definition obl (f : node -> M) : Prop :=
  forall n s,
  match f n with
  | Ok (n', o) => exists s' o', f (set_sg n s) = Ok (set_sg n' s', o')
  | Err e => f (set_sg n s) = Err e
  | Panic w => f (set_sg n s) = Panic w
  end.

Lemma set_sg_idem n s s' : set_sg (set_sg n s) s' = set_sg n s'. Proof. reflexivity. Qed.

Lemma obl_of_blind f : blind f -> obl f.
Proof.
  intros Hf n s. specialize (Hf n s). destruct (f n) as [[n' o]|e|w]; [|exact Hf|exact Hf].
  destruct Hf as (_ & s' & o' & E & _). exists s', o'. exact E.
Qed.

Lemma obl_ret : obl ret. Proof. intros n s. cbn. exists s, []. reflexivity. Qed.

Theorem obl_handle c i : obl (handle c i).
Proof. apply obl_of_blind, blind_handle. Qed.

Theorem replay_restores c h vs lc me s0 s1 ins n0 n :
  init_node h vs lc me s0 = Ok n0 -> run c ins n0 = Ok n ->
  exists n0' n' s', init_node h vs lc me s1 = Ok n0' /\ run c ins n0' = Ok n' /\ n' = set_sg n s'.
Proof.
  unfold init_node. destruct (new_hvs h (vals_of vs)) as [hv|e|w]; try discriminate.
  intros E0 Hr. pose proof (run_blind c ins n0 s1) as H. rewrite Hr in H. destruct H as (_ & s' & H & _).
  injection E0 as <-. eexists _, _, s'. split; [reflexivity|]. split; [exact H|reflexivity].
Qed.
